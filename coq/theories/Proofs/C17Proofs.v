(* C17.  Recover's big-step meaning (eval_cb) read off directly: no panic - identity; panic - the converted error
   (recovered_shape); a Recover frame always returns.  model_is_spec needs the converted error to be NEW among
   the pool, which is [pool_bound] (pool addresses are below the counter), kept by every statement. *)
From Errdef Require Import Base.Str Model.Core Model.GoErrors Model.Prog Check.C02 Check.C17 Proofs.ProgFacts.

Lemma no_panic_identity s f c stk r n :
  eval_cb s c (s_next s) = (Normal r, n) -> fst (c_recover s f c stk) = r.
Proof. unfold c_recover. intros ->. reflexivity. Qed.

Lemma panic_converted s f c stk v n :
  eval_cb s c (s_next s) = (Panicking v, n) ->
  fst (c_recover s f c stk) = Some (recovered n (get_def s f) v stk).
Proof. unfold c_recover. intros ->. reflexivity. Qed.

Lemma recovered_shape a d v stk :
  exists pe, recovered a d v stk = EDef (a + 1) d ("panic: " ++ pv_msg v) (Some pe) false (stack_of d stk) /\
  as_first is_panic_error (recovered a d v stk) = Some pe /\
  match v with
  | PVErr x => pe = EPanic a (fmt_v x) 0 (Some x) /\ errors_is (recovered a d v stk) x = true
  | PVOther id s => pe = EPanic a s id None
  end.
Proof.
  destruct v as [x|id s]; eexists; (split; [reflexivity|]); (split; [reflexivity|]).
  - split; [reflexivity|]. unfold recovered, new_error.
    apply (errors_is_mono x); [|apply errors_is_self].
    intros n Hin. cbn [reach]. right. right. exact Hin.
  - reflexivity.
Qed.

Lemma recover_returns s f c stk n : exists r n', eval_cb s (CRecover f c stk) n = (Normal r, n').
Proof. cbn [eval_cb]. destruct (eval_cb s c n) as [[r|v] n']; eexists; eexists; reflexivity. Qed.

Lemma outer_sees_normal s f c stk n r n' :
  eval_cb s c n = (Normal r, n') -> eval_cb s (CRecover f c stk) n = (Normal r, n').
Proof. cbn [eval_cb]. intros ->. reflexivity. Qed.

Lemma innermost_only s f1 f2 c stk1 stk2 n :
  eval_cb s (CRecover f1 (CRecover f2 c stk2) stk1) n = eval_cb s (CRecover f2 c stk2) n.
Proof.
  destruct (recover_returns s f2 c stk2 n) as [r [n' E]]. rewrite E. now apply outer_sees_normal.
Qed.

Lemma call_transparent s c n : eval_cb s (CCall c) n = eval_cb s c n.
Proof. reflexivity. Qed.

Definition pool_bound (s : st) : Prop :=
  forall e, In (Some e) (s_errs s) -> is_defn_val e = false -> (addr_of e < s_next s)%N.

Lemma idx_from_fresh pool e : forall i,
  (forall x, In (Some x) pool -> same x e = false) -> idx_from pool e i = (-1)%Z.
Proof.
  induction pool as [|[x|] r IH]; intros i H; cbn; [reflexivity| |].
  - rewrite (H x (or_introl eq_refl)). apply IH. intros y Hy. apply H. now right.
  - apply IH. intros y Hy. apply H. now right.
Qed.

Theorem model_is_spec s f c stk : pool_bound s -> model1 (s, SRecover f c stk) = spec1 (s, SRecover f c stk).
Proof.
  intros Hb. unfold model1, spec1. cbn [fst snd step]. unfold c_recover.
  destruct (eval_cb s c (s_next s)) as [[r|v] n] eqn:E; unfold add_err; cbn [s_errs]; rewrite last_last.
  - reflexivity.
  - apply eval_cb_mono in E as Hm. unfold describe.
    assert (Hf : idx_of (s_errs s) (recovered n (get_def s f) v stk) = (-1)%Z).
    { apply idx_from_fresh. intros x Hx. unfold same. destruct (is_defn_val x) eqn:D.
      - destruct v; reflexivity.
      - specialize (Hb x Hx D). destruct v; cbn; apply N.eqb_neq; lia. }
    rewrite Hf. destruct v as [x|id sv]; cbn -[idx_of errors_is].
    + f_equal. unfold is_v. cbn -[idx_of errors_is].
      destruct (recovered_shape n (get_def s f) (PVErr x) stk) as [pe [_ [_ [_ Is]]]].
      rewrite Is. apply andb_true_r.
    + reflexivity.
Qed.

Lemma pool_bound_step s x : pool_bound s -> pool_bound (step s x).
Proof.
  intros Hb. destruct (step_cases s x) as [| | | |x oe u _ H]; intros e Hin D; cbn [add_def add_ctx add_err s_errs s_next] in *;
    [specialize (Hb e Hin D); lia ..|].
  apply in_app_or in Hin as [Hin|[->|[]]]; [specialize (Hb e Hin D); lia|].
  destruct (H e eq_refl) as [_ [P|[P|P]]]; [specialize (Hb e P D)|congruence|]; lia.
Qed.

Lemma pool_bound_run_from p : forall s, pool_bound s -> pool_bound (fold_left step p s).
Proof. exact (steps_ind pool_bound pool_bound_step p). Qed.

Lemma pool_bound0 : pool_bound st0.
Proof. intros e []. Qed.

Lemma trace_bound p : forall s, pool_bound s -> forall sx, In sx (trace_from s p) -> pool_bound (fst sx).
Proof.
  induction p as [|x r IH]; intros s H sx Hin; [contradiction|].
  cbn in Hin. destruct Hin as [<-|Hin]; [exact H|]. eapply IH; [|exact Hin]. now apply pool_bound_step.
Qed.

(* pool_bound holds along the whole trace, so the two checks are the same predicate *)
Theorem corr_eq_ok c : corr c = ok c.
Proof.
  unfold corr, ok. apply f_equal, f_equal, map_ext_in. intros [s x] Hin. apply filter_In in Hin as [Hin Hr].
  destruct x; try discriminate Hr. apply model_is_spec, (trace_bound (c_prog c) st0 pool_bound0 _ Hin).
Qed.

Theorem corr_implies_ok c : corr c = true -> ok c = true.
Proof. now rewrite corr_eq_ok. Qed.
