(* C14: the interpreters of the tables srcgen reads from resolver/*.go (Model/ResolverGen.v) coincide with the
   transcription Model/Resolver.v (model_is_source); so the check's model computes the specification of
   ResolverProofs.v on the whole input domain (model_is_spec), and agreeing with it is enough (corr_implies_ok). *)
From Errdef Require Import Base.Str Base.Outcome Model.Resolver Model.ResolverGen Gen.ResolverSrc Proofs.ResolverProofs Check.C14.

Lemma res_eqb_eq a b : res_eqb a b = true <-> a = b.
Proof.
  destruct a, b; cbn; split; intros H; try reflexivity; try discriminate.
  - apply N.eqb_eq in H. now subst.
  - inversion H. apply N.eqb_refl.
Qed.

Lemma rd_get_in d key T v : rd_get d key = Some (T, v) -> In (key, (T, v)) (rd_fields d).
Proof.
  unfold rd_get. destruct (find _ (rd_fields d)) as [[k tv]|] eqn:F; [|discriminate].
  cbn. intros E. inversion E; subst. apply find_some in F as [Hin Hk].
  cbn in Hk. apply N.eqb_eq in Hk. now subst.
Qed.

Lemma fields_okb_defs_ok defs : forallb fields_okb defs = true -> defs_ok defs.
Proof.
  intros H d key T v Hin G. rewrite forallb_forall in H. specialize (H d Hin).
  unfold fields_okb in H. rewrite forallb_forall in H.
  apply rd_get_in in G. now specialize (H _ G).
Qed.

Lemma func_find ds key p :
  resolve_field_func ds key (fun _ v => Ok (eval_pred p v)) = Ok (spec_func ds key p).
Proof.
  unfold spec_func. induction ds as [|d r IH]; [reflexivity|].
  cbn [resolve_field_func find]. destruct (rd_get d key) as [[T v]|]; [|exact IH].
  destruct (eval_pred p v); [reflexivity|exact IH].
Qed.

Lemma compact_by_identity l : wf_defs l ->
  compact_by (fun a b => N.eqb (rd_id a) (rd_id b)) l = compact l.
Proof.
  induction l as [|x [|y r] IH]; intros Hwf; [reflexivity..|].
  specialize (IH (wf_tail _ _ Hwf)). rewrite compact_cons2. cbn [compact_by compact_from] in *.
  destruct (N.eqb (rd_id x) (rd_id y)) eqn:E; [|now rewrite IH].
  apply N.eqb_eq in E. now rewrite (Hwf x y (or_introl eq_refl) (or_intror (or_introl eq_refl)) E).
Qed.

Lemma g_new_resolver_ref defs : wf_defs defs -> g_new_resolver defs = new_resolver defs.
Proof.
  intros Hwf. unfold g_new_resolver, new_resolver.
  change (cpred_fn new_compact_pred) with (fun a b : rdef => N.eqb (rd_id a) (rd_id b)).
  rewrite (compact_by_identity _ Hwf). reflexivity.
Qed.

Lemma model_is_source :
  (forall defs, wf_defs defs -> g_new_resolver defs = new_resolver defs) /\
  (forall r k, g_resolve_kind r k = resolve_kind r k) /\
  (forall r key eq, g_resolve_field_func r key eq = resolve_field_func (r_defs r) key eq) /\
  (forall r key want, g_resolve_field r key want = resolve_field r key want) /\
  (forall r d k, g_resolve_kind_or_default r d k = resolve_kind_or_default r d k) /\
  (forall r d key want, g_resolve_field_or_default r d key want = resolve_field_or_default r d key want) /\
  (forall r d key eq, g_resolve_field_func_or_default r d key eq
                      = or_default_out d (resolve_field_func (r_defs r) key eq)).
Proof. split; [exact g_new_resolver_ref|repeat split]. Qed.

Lemma source_shape : source_shape_ok = true.
Proof. reflexivity. Qed.

Lemma model_is_spec c : wf_defs (c_defs c) -> in_domain c = true -> model c = spec c.
Proof.
  intros Hwf Hd. apply andb_true_iff in Hd as [Hf Hl]. apply fields_okb_defs_ok in Hf.
  destruct model_is_source as [_ [Rk [Rff [Rf [Rkd [Rfd Rffd]]]]]].
  unfold model, spec. rewrite (g_new_resolver_ref _ Hwf).
  destruct (c_lookup c) as [k|k|key w|key w|key p|key p]; cbn in Hl.
  - now rewrite Rk, resolve_kind_first.
  - rewrite Rkd. unfold resolve_kind_or_default. rewrite resolve_kind_first by assumption.
    destruct (spec_kind (c_defs c) k); reflexivity.
  - now rewrite Rf, resolve_field_first.
  - rewrite Rfd. unfold resolve_field_or_default. rewrite resolve_field_first by assumption.
    destruct (spec_field (c_defs c) key w); reflexivity.
  - rewrite Rff. cbn [new_resolver r_defs]. rewrite func_find. unfold spec_func.
    now rewrite find_compact.
  - rewrite Rffd. cbn [new_resolver r_defs]. rewrite func_find. unfold spec_func.
    rewrite find_compact by assumption. cbn [or_default_out res_of_rdef].
    destruct (find _ (c_defs c)); reflexivity.
Qed.

Lemma corr_implies_ok c : wf_defs (c_defs c) -> corr c = true -> ok c = true.
Proof.
  intros Hwf Hc. unfold ok. destruct (in_domain c) eqn:D; [|reflexivity]. cbn.
  unfold corr in Hc. now rewrite <- model_is_spec.
Qed.
