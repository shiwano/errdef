From Errdef Require Import Base.Str Model.Core Model.Prog Proofs.ProgFacts.

Definition extends (s s' : st) : Prop :=
  (exists a, s_defs s' = (s_defs s ++ a)%list) /\
  (exists b, s_ctxs s' = (s_ctxs s ++ b)%list) /\
  (exists c, s_errs s' = (s_errs s ++ c)%list).

Lemma extends_refl s : extends s s.
Proof. repeat split; exists []; now rewrite app_nil_r. Qed.

Lemma extends_trans a b c : extends a b -> extends b c -> extends a c.
Proof.
  intros [[x1 A1] [[y1 B1] [z1 C1]]] [[x2 A2] [[y2 B2] [z2 C2]]].
  repeat split; [exists (x1 ++ x2)%list|exists (y1 ++ y2)%list|exists (z1 ++ z2)%list];
    rewrite ?A2, ?B2, ?C2, ?A1, ?B1, ?C1; now rewrite app_assoc.
Qed.

Theorem step_extends s x : extends s (step s x).
Proof.
  destruct (step_cases s x); repeat split; cbn;
    first [eexists; reflexivity|exists []; symmetry; apply app_nil_r].
Qed.

Lemma fold_extends q s : extends s (fold_left step q s).
Proof.
  apply steps_ind; [|apply extends_refl]. intros s' x H. eapply extends_trans; [exact H|apply step_extends].
Qed.

Theorem frame p q : extends (run p) (run (p ++ q)).
Proof. unfold run. rewrite fold_left_app. apply fold_extends. Qed.

Theorem objects_unchanged p q :
  (forall i d, nth_error (s_defs (run p)) i = Some d -> nth_error (s_defs (run (p ++ q))) i = Some d) /\
  (forall i c, nth_error (s_ctxs (run p)) i = Some c -> nth_error (s_ctxs (run (p ++ q))) i = Some c) /\
  (forall i e, nth_error (s_errs (run p)) i = Some e -> nth_error (s_errs (run (p ++ q))) i = Some e).
Proof.
  destruct (frame p q) as [[a A] [[b B] [c C]]]. rewrite A, B, C.
  repeat split; intros i x H; (rewrite nth_error_app1; [exact H|apply nth_error_Some; congruence]).
Qed.

(* the clone carries its own fields value; options are applied to the clone only *)
Theorem derive_leaves_base a d ctx os :
  with_ a d ctx os = d \/ d_addr (with_ a d ctx os) = a.
Proof. rewrite with_as_opts. destruct (with_options_ids a d (ctx ++ os)) as [->|[A _]]; auto. Qed.

From Errdef Require Import Gen.Effects Spec.EffectsAudit.

(* What srcgen extracts from /repo now - every assignment, increment, delete, append-in-place
   and reflect Set whose target is not a local or a value allocated in the same function, every
   call of a mutating function with the object it is handed, and the bodies of the allocating
   functions "fresh" relies on - equals the audited tables.  A new write into a shared
   definition / fields map / error or into a caller-owned slice changes Gen/Effects.v. *)
Theorem writes_audited :
  effects_matched = true /\ write_sites = audited_write_sites /\
  mutator_calls = audited_mutator_calls /\ fresh_sources = audited_fresh_sources.
Proof. repeat split; reflexivity. Qed.
