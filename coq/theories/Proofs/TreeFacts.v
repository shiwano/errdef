(* Structural induction on the error trees of Model/Tree0.v, with the hypothesis for the children as a [Forall]. *)
From Errdef Require Import Base.Str Model.Tree0.

Section tree_induction.
  Variable P : tree -> Prop.
  Hypothesis H : forall e kids, Forall P kids -> P (T e kids).
  Fixpoint tree_ind' (t : tree) : P t :=
    match t with
    | T e kids => H e kids ((fix go (l : list tree) : Forall P l :=
                              match l with [] => Forall_nil P | k :: r => Forall_cons k (tree_ind' k) (go r) end) kids)
    end.
End tree_induction.
