(* C15: redacted values never appear in any output.  Two relations over the same nested
   structures (val, err, json, slog value), each with a rule induction, each proved sink by
   sink.  Non-interference: [same_public], [same_err] relate values equal except for the
   secrets below Redacted values; then the placeholder, the JSON round trip and the boundary
   witnesses.  Marker-freeness: [clean] of every text the model builds, from [pclean]/[wrapped],
   [jclean], [lvclean], [eclean]; it is the link to the check. *)
From Errdef Require Import Base.Str Base.ListFacts Model.Redact Check.C15.

(* [in_all P F l] is the induction hypothesis for the members of a nested list; its [fix]
   binds the list alone, so that the guard checker sees [F] applied to members of [l] only. *)
Section InAll.
Context {A} (P : A -> Prop) (F : forall a, P a).
Fixpoint in_all (l : list A) : forall a, In a l -> P a :=
  match l with
  | [] => fun a (H : In a []) => match H with end
  | x :: r => fun a H => match H with
                         | or_introl E => eq_ind x P (F x) a E
                         | or_intror H' => in_all r a H'
                         end
  end.
End InAll.

Section ValInd.
Variable P : val -> Prop.
Hypothesis Hstr : forall s, P (VStr s).
Hypothesis Hint : forall z, P (VInt z).
Hypothesis Hbool : forall b, P (VBool b).
Hypothesis Hsec : forall t id, P (VSecret t id).
Hypothesis Hred : forall p, P p -> P (VRedacted p).
Hypothesis Hstruct : forall n fs, (forall f, In f fs -> P (snd f)) -> P (VStruct n fs).
Hypothesis Hmap : forall tn kvs, (forall kv, In kv kvs -> P (snd kv)) -> P (VMap tn kvs).
Hypothesis Hslice : forall l, (forall x, In x l -> P x) -> P (VSlice l).
Hypothesis Hptr : forall x, P x -> P (VPtr x).
Hypothesis Hiface : forall x, P x -> P (VIface x).
Hypothesis Hfields : forall fs last ord, (forall kv, In kv fs -> P (snd kv)) -> P (VFields fs last ord).

Fixpoint val_ind' (v : val) : P v :=
  match v with
  | VStr s => Hstr s
  | VInt z => Hint z
  | VBool b => Hbool b
  | VSecret t id => Hsec t id
  | VRedacted p => Hred p (val_ind' p)
  | VStruct n fs => Hstruct n fs (in_all (fun f => P (snd f)) (fun f => val_ind' (snd f)) fs)
  | VMap tn kvs => Hmap tn kvs (in_all (fun kv => P (snd kv)) (fun kv => val_ind' (snd kv)) kvs)
  | VSlice l => Hslice l (in_all P (fun x => val_ind' x) l)
  | VPtr x => Hptr x (val_ind' x)
  | VIface x => Hiface x (val_ind' x)
  | VFields fs last ord => Hfields fs last ord (in_all (fun kv => P (snd kv)) (fun kv => val_ind' (snd kv)) fs)
  end.
End ValInd.

Lemma Forall2_nonempty {A B} (R : A -> B -> Prop) l l' : Forall2 R l l' -> nonempty l = nonempty l'.
Proof. now destruct 1. Qed.

(* The model's nested [fix go] over a list [l] is a [map]: where the right side of the goal
   has [map f l], the left side has [go l]; what stays to be shown is [map f l = go l]. *)
Ltac fix_is_map l :=
  match goal with |- ?lhs = ?rhs =>
    match rhs with context [map ?f l] =>
      match lhs with context [?go l] => replace (go l) with (map f l); [reflexivity|] end
    end
  end.

Section Unfold.
Variable L : leaves.

Definition fmt_field st (meth : bool) (f : string * bool * val) : string * string :=
  (fst (fst f), fmt_at L st (meth && snd (fst f)) false (snd f)).
Definition fmt_entry st (meth : bool) (kv : string * val) : string * string :=
  (l_str L st (fst kv), fmt_at L st meth false (snd kv)).

Lemma fmt_struct_eq st m top n fs :
  fmt_at L st m top (VStruct n fs) = struct_shell st n (map (fmt_field st m) fs).
Proof.
  simpl. f_equal. induction fs as [|[[fn ex] x] r IH]; simpl; [reflexivity|]. now rewrite IH.
Qed.

Lemma fmt_map_eq st m top tn kvs :
  fmt_at L st m top (VMap tn kvs) = map_shell st tn (map (fmt_entry st m) kvs).
Proof.
  simpl. f_equal. induction kvs as [|[k x] r IH]; simpl; [reflexivity|]. now rewrite IH.
Qed.

Lemma fmt_slice_eq st m top l :
  fmt_at L st m top (VSlice l) = slice_shell st (map (fmt_at L st m false) l).
Proof.
  reflexivity.
Qed.

Definition fields_entry st (kv : fkey * val) : string * string :=
  let k := fst kv in
  let vt := ("errdef.fieldValue[" ++ k_ty k ++ "]")%string in
  (fmt_pointer L st ("*errdef.fieldKey[" ++ k_ty k ++ "]")
     ("&" ++ struct_shell (as_v st) ("errdef.fieldKey[" ++ k_ty k ++ "]")
               [("name", l_str L (as_v st) (k_name k))])%string,
   struct_shell st "errdef.indexedFieldValue"
     [("value", fmt_pointer L st ("*" ++ vt)
                  ("&" ++ struct_shell (as_v st) vt [("value", fmt_at L (as_v st) false false (snd kv))])%string);
      ("index", l_int L st (k_idx k))]).

Definition fields_body st (fs : list (fkey * val)) (last : Z) (order : list nat) : string :=
  ("&" ++ struct_shell st "errdef.fields"
     [("data", map_shell st "map[errdef.FieldKey]errdef.indexedFieldValue" (pick (map (fields_entry st) fs) order));
      ("lastIndex", l_int L st last)])%string.

Lemma fmt_fields_eq st m top fs last order :
  fmt_at L st m top (VFields fs last order) =
  if top then fields_body st fs last order
  else fmt_pointer L st "*errdef.fields" (fields_body (as_v st) fs last order).
Proof.
  cbn [fmt_at]. unfold fields_body. destruct top; fix_is_map fs.
  all: induction fs as [|[k x] r IH]; [reflexivity|]; cbn [map]; now rewrite IH.
Qed.

Lemma fmt_pointer_valid st ty r : ptr_valid (p_verb st) = true -> fmt_pointer L st ty r = l_addr L st ty.
Proof. unfold fmt_pointer. now intros ->. Qed.
End Unfold.

(* [m] = true at the positions that a sink reaches through methods: only there may the
   secrets below Redacted values differ *)

Fixpoint same_public (m : bool) (v v' : val) {struct v} : Prop :=
  if m then
    match v, v' with
    | VRedacted p, VRedacted p' => type_str p = type_str p'
    | VStruct n fs, VStruct n' fs' =>
        n = n' /\
        (fix go (fs fs' : list (string * bool * val)) : Prop :=
           match fs, fs' with
           | [], [] => True
           | (fn, ex, x) :: r, (fn', ex', x') :: r' =>
               fn = fn' /\ ex = ex' /\ same_public ex x x' /\ go r r'
           | _, _ => False
           end) fs fs'
    | VMap tn kvs, VMap tn' kvs' =>
        tn = tn' /\
        (fix go (kvs kvs' : list (string * val)) : Prop :=
           match kvs, kvs' with
           | [], [] => True
           | (k, x) :: r, (k', x') :: r' => k = k' /\ same_public true x x' /\ go r r'
           | _, _ => False
           end) kvs kvs'
    | VSlice l, VSlice l' =>
        (fix go (l l' : list val) : Prop :=
           match l, l' with
           | [], [] => True
           | x :: r, x' :: r' => same_public true x x' /\ go r r'
           | _, _ => False
           end) l l'
    | VPtr x, VPtr x' => same_public true x x'
    | VIface x, VIface x' => same_public true x x'
    | VFields fs last ord, VFields fs' last' ord' =>
        last = last' /\ ord = ord' /\
        (fix go (fs fs' : list (fkey * val)) : Prop :=
           match fs, fs' with
           | [], [] => True
           | (k, x) :: r, (k', x') :: r' => k = k' /\ same_public true x x' /\ go r r'
           | _, _ => False
           end) fs fs'
    | _, _ => v = v'
    end
  else v = v'.

Definition same_field (a b : string * bool * val) : Prop :=
  fst a = fst b /\ same_public (snd (fst a)) (snd a) (snd b).
Definition same_entry {K} (a b : K * val) : Prop := fst a = fst b /\ same_public true (snd a) (snd b).
Definition same_fields (fs fs' : fields) : Prop := Forall2 same_entry fs fs'.

Lemma go_fields fs fs' :
  (fix go (fs fs' : list (string * bool * val)) : Prop :=
     match fs, fs' with
     | [], [] => True
     | (fn, ex, x) :: r, (fn', ex', x') :: r' => fn = fn' /\ ex = ex' /\ same_public ex x x' /\ go r r'
     | _, _ => False
     end) fs fs' <-> Forall2 same_field fs fs'.
Proof.
  revert fs'. induction fs as [|[[fn ex] x] r IH]; intros [|[[fn' ex'] x'] r']; split; intros H;
    try (now inversion H); try exact I.
  - destruct H as (-> & -> & H & Hr). constructor; [now split|now apply IH].
  - inversion H as [|? ? ? ? [E Hx] Hr]; subst. simpl in *. injection E as -> ->. repeat split; [exact Hx|now apply IH].
Qed.

Lemma go_entries {K} (kvs kvs' : list (K * val)) :
  (fix go (kvs kvs' : list (K * val)) : Prop :=
     match kvs, kvs' with
     | [], [] => True
     | (k, x) :: r, (k', x') :: r' => k = k' /\ same_public true x x' /\ go r r'
     | _, _ => False
     end) kvs kvs' <-> Forall2 same_entry kvs kvs'.
Proof.
  revert kvs'. induction kvs as [|[k x] r IH]; intros [|[k' x'] r']; split; intros H;
    try (now inversion H); try exact I.
  - destruct H as (-> & H & Hr). constructor; [now split|now apply IH].
  - inversion H as [|? ? ? ? [E Hx] Hr]; subst. simpl in *. subst. repeat split; [exact Hx|now apply IH].
Qed.

Lemma same_public_false v v' : same_public false v v' <-> v = v'.
Proof. destruct v; simpl; tauto. Qed.

Lemma same_public_map tn kvs kvs' : Forall2 same_entry kvs kvs' -> same_public true (VMap tn kvs) (VMap tn kvs').
Proof. intros H. split; [reflexivity|]. now apply go_entries. Qed.

Lemma same_public_slice l l' : Forall2 (same_public true) l l' -> same_public true (VSlice l) (VSlice l').
Proof. apply go_Forall2. Qed.

Lemma same_public_fields fs fs' last ord : same_fields fs fs' -> same_public true (VFields fs last ord) (VFields fs' last ord).
Proof. intros H. repeat split. now apply go_entries. Qed.

Lemma same_public_refl m v : same_public m v v.
Proof.
  revert m. induction v using val_ind'; (intros [|]; [|now apply same_public_false]); simpl; auto.
  - split; [reflexivity|]. apply go_fields, Forall2_refl_In. now split; [|apply H].
  - apply same_public_map, Forall2_refl_In. now split; [|apply H].
  - apply same_public_slice, Forall2_refl_In. intros x Hx. now apply H.
  - apply same_public_fields, Forall2_refl_In. now split; [|apply H].
Qed.

Lemma same_public_ind' (P : bool -> val -> val -> Prop) :
  (forall m v, P m v v) ->
  (forall p p', type_str p = type_str p' -> P true (VRedacted p) (VRedacted p')) ->
  (forall n fs fs', Forall2 (fun a b => same_field a b /\ P (snd (fst a)) (snd a) (snd b)) fs fs' ->
     P true (VStruct n fs) (VStruct n fs')) ->
  (forall tn kvs kvs', Forall2 (fun a b => same_entry a b /\ P true (snd a) (snd b)) kvs kvs' ->
     P true (VMap tn kvs) (VMap tn kvs')) ->
  (forall l l', Forall2 (fun a b => same_public true a b /\ P true a b) l l' -> P true (VSlice l) (VSlice l')) ->
  (forall x x', same_public true x x' -> P true x x' -> P true (VPtr x) (VPtr x')) ->
  (forall x x', same_public true x x' -> P true x x' -> P true (VIface x) (VIface x')) ->
  (forall fs fs' last ord, Forall2 (fun a b => same_entry a b /\ P true (snd a) (snd b)) fs fs' ->
     P true (VFields fs last ord) (VFields fs' last ord)) ->
  forall m v v', same_public m v v' -> P m v v'.
Proof.
  intros Hrefl Hred Hstruct Hmap Hslice Hptr Hiface Hfields m v. revert m.
  (* without methods, and at a leaf, [same_public] is convertible with an equation *)
  induction v using val_ind'; intros [|] v' Hs; try (destruct (Hs : _ = v'); apply Hrefl);
    destruct v'; try discriminate Hs; simpl in Hs; auto.
  - destruct Hs as [<- Hs%go_fields]. apply Hstruct, (Forall2_impl_In _ _ _ _ Hs).
    intros a b Hin Hab. split; [exact Hab|]. apply (H a Hin), Hab.
  - destruct Hs as [<- Hs%go_entries]. apply Hmap, (Forall2_impl_In _ _ _ _ Hs).
    intros a b Hin Hab. split; [exact Hab|]. apply (H a Hin), Hab.
  - apply go_Forall2 in Hs. apply Hslice, (Forall2_impl_In _ _ _ _ Hs).
    intros a b Hin Hab. split; [exact Hab|]. now apply H.
  - destruct Hs as (<- & <- & Hs%go_entries). apply Hfields, (Forall2_impl_In _ _ _ _ Hs).
    intros a b Hin Hab. split; [exact Hab|]. apply (H a Hin), Hab.
Qed.

Lemma same_public_shape : forall m v v', same_public m v v' ->
  type_str v = type_str v' /\ is_redacted v = is_redacted v' /\ composite v = composite v'.
Proof. apply same_public_ind'; intros; cbn [type_str]; intuition congruence. Qed.

(* The side condition of fmt: a directive under which pointers print as numbers, or a value
   without a pointer to a composite below depth 0 *)
Definition fmt_guard (st : pst) (m top : bool) (v : val) : Prop :=
  m = false \/ ptr_valid (p_verb st) = true \/ ptrs_guarded top v = true.

Section FmtGuard.
Variables (st : pst) (m top : bool).

Lemma fmt_guard_field n fs f : fmt_guard st m top (VStruct n fs) -> In f fs -> fmt_guard st (m && snd (fst f)) false (snd f).
Proof.
  intros [->|[Hg|Hg]] Hin; [now left|now right; left|]. destruct f as [[fn []] x]; [|left; apply andb_false_r].
  right; right. simpl in *. induction fs as [|[[fn0 ex0] x0] r IH]; [contradiction|].
  apply andb_true_iff in Hg as [G1 G2]. destruct Hin as [E|Hin]; [|now apply IH]. now inversion E; subst.
Qed.

Lemma fmt_guard_entry tn kvs kv : fmt_guard st m top (VMap tn kvs) -> In kv kvs -> fmt_guard st m false (snd kv).
Proof.
  intros [->|[Hg|Hg]] Hin; [now left|now right; left|]. right; right. simpl in Hg.
  induction kvs as [|[k0 x0] r IH]; [contradiction|].
  apply andb_true_iff in Hg as [G1 G2]. destruct Hin as [<-|Hin]; [exact G1|now apply IH].
Qed.

Lemma fmt_guard_elem l x : fmt_guard st m top (VSlice l) -> In x l -> fmt_guard st m false x.
Proof.
  intros [->|[Hg|Hg]] Hin; [now left|now right; left|]. right; right. simpl in Hg.
  induction l as [|x0 r IH]; [contradiction|].
  apply andb_true_iff in Hg as [G1 G2]. destruct Hin as [<-|Hin]; [exact G1|now apply IH].
Qed.

(* a pointer that is not handled by the Format method of a Redacted pointee: behind "&" at
   depth 0 the pointee is guarded; where fmt would re-print a composite pointee under a
   bad verb, no method is in play *)
Lemma fmt_guard_ptr x : fmt_guard st m top (VPtr x) -> m && is_redacted x = false ->
  (top && composite x = true -> fmt_guard st m false x) /\
  (top && composite x = false -> ptr_valid (p_verb st) = false -> composite x = true -> m = false).
Proof.
  intros [->|[Hg|Hg]] Hr; [now split; [left|]|split; [now right; left|congruence]|].
  destruct m; [|now split; [left|]]. simpl in Hr, Hg. rewrite Hr in Hg. split.
  - intros [-> Hc]%andb_true_iff. rewrite Hc in Hg. now right; right.
  - intros Htc _ Hc. rewrite Hc in Hg, Htc. now apply andb_true_iff in Hg as [-> _].
Qed.

Lemma fmt_guard_fields fs last ord : fmt_guard st true top (VFields fs last ord) -> ptr_valid (p_verb st) = true.
Proof. now intros [?|[?|?]]. Qed.
End FmtGuard.

Section FmtNI.
Variable L : leaves.

Lemma fmt_ni st : forall m v v', same_public m v v' ->
  forall top, fmt_guard st m top v -> fmt_at L st m top v = fmt_at L st m top v'.
Proof.
  intros m v v' H.
  induction H as [| |n fs fs' H|tn kvs kvs' H|l l' H|x x' Hx IH|x x' _ IH|fs fs' last ord H] using same_public_ind';
    intros top Hg; try reflexivity.
  -  rewrite !fmt_struct_eq. f_equal.
    apply (map_ext_Forall2 _ _ _ _ _ H). intros [[fn ex] x] [[fn' ex'] x'] Hin [[E _] IH].
    injection E as <- <-. unfold fmt_field. cbn [fst snd andb] in *. f_equal. apply IH, (fmt_guard_field _ _ _ _ _ _ Hg Hin).
  - rewrite !fmt_map_eq. f_equal.
    apply (map_ext_Forall2 _ _ _ _ _ H). intros [k x] [k' x'] Hin [[E _] IH]. simpl in E. subst k'.
    unfold fmt_entry. cbn [fst snd] in *. f_equal. apply IH, (fmt_guard_entry _ _ _ _ _ _ Hg Hin).
  - rewrite !fmt_slice_eq. f_equal.
    apply (map_ext_Forall2 _ _ _ _ _ H). intros x x' Hin [_ IH]. apply IH, (fmt_guard_elem _ _ _ _ _ Hg Hin).
  - destruct (same_public_shape _ _ _ Hx) as (Ht & Hr & Hc). cbn [fmt_at type_str andb]. rewrite <- Hr, <- Hc, <- Ht.
    destruct (is_redacted x) eqn:Er; [reflexivity|]. destruct (fmt_guard_ptr _ _ _ _ Hg Er) as [G1 G2].
    destruct (top && composite x) eqn:Etc; [now rewrite IH; [|apply G1]|].
    unfold fmt_pointer. destruct (ptr_valid (p_verb st)) eqn:Ev; [reflexivity|].
    destruct (composite x) eqn:Ec; [|reflexivity]. discriminate (G2 eq_refl eq_refl eq_refl).
  - exact (IH false Hg).
  - (* the fields collection: only under a directive that is valid for pointers *)
    apply fmt_guard_fields in Hg. rewrite !fmt_fields_eq, !fmt_pointer_valid by exact Hg.
    assert (E : forall st0, ptr_valid (p_verb st0) = true ->
                map (fields_entry L st0) fs = map (fields_entry L st0) fs').
    { intros st0 Hv. apply (map_ext_Forall2 _ _ _ _ _ H). intros [k x] [k' x'] _ [[E _] _].
      simpl in E. subst k'. unfold fields_entry, fmt_pointer. cbn [fst snd]. now rewrite Hv. }
    unfold fields_body. now rewrite (E st Hg).
Qed.

End FmtNI.

Definition json_field (f : string * bool * val) : list (string * json) :=
  if snd (fst f) then [(fst (fst f), to_json (snd f))] else [].

Lemma json_struct_eq n fs : to_json (VStruct n fs) = JObj (List.concat (map json_field fs)).
Proof.
  simpl. f_equal. induction fs as [|[[fn ex] x] r IH]; [reflexivity|].
  unfold json_field at 1. simpl. destruct ex; simpl; now rewrite IH.
Qed.

Definition json_entry {K} (name : K -> string) (kv : K * val) : string * json := (name (fst kv), to_json (snd kv)).

Lemma json_map_eq tn kvs : to_json (VMap tn kvs) = JObj (map (json_entry (fun k => k)) kvs).
Proof.
  simpl. f_equal. induction kvs as [|[k x] r IH]; [reflexivity|]. simpl. now rewrite IH.
Qed.

Definition ins_all {A} (l acc : list (string * A)) : list (string * A) :=
  fold_left (fun a p => ins_sorted (fst p) (snd p) a) l acc.

Lemma json_fields_eq fs last ord :
  to_json (VFields fs last ord) = JHtml (JObj (ins_all (map (json_entry k_name) fs) [])).
Proof.
  simpl. do 2 f_equal. generalize (@nil (string * json)).
  induction fs as [|[k x] r IH]; intros acc; [reflexivity|]. simpl. now rewrite IH.
Qed.

(* no side condition, unlike fmt: json follows pointers, but through the Marshaler of what
   it finds *)
Lemma json_ni m v v' : same_public m v v' -> to_json v = to_json v'.
Proof.
  intros H.
  induction H as [| |n fs fs' H|tn kvs kvs' H|l l' H|x x' _ IH|x x' _ IH|fs fs' last ord H] using same_public_ind';
    try reflexivity; try exact IH.
  - rewrite !json_struct_eq. do 2 f_equal.
    apply (map_ext_Forall2 _ _ _ _ _ H). intros [[fn ex] x] [[fn' ex'] x'] _ [[E _] IH].
    injection E as <- <-. unfold json_field. cbn [fst snd] in *. now rewrite IH.
  - rewrite !json_map_eq. f_equal.
    apply (map_ext_Forall2 _ _ _ _ _ H). intros [k x] [k' x'] _ [[E _] IH]. unfold json_entry. simpl in *. congruence.
  - simpl. f_equal. apply (map_ext_Forall2 _ _ _ _ _ H). now intros x x' _ [_ IH].
  - rewrite !json_fields_eq. do 3 f_equal.
    apply (map_ext_Forall2 _ _ _ _ _ H). intros [k x] [k' x'] _ [[E _] IH]. unfold json_entry. simpl in *. congruence.
Qed.

Lemma log_value_ptr x : log_value (VPtr x) = if is_redacted x then LStr placeholder else LAny (VPtr x).
Proof. destruct x; reflexivity. Qed.

Definition plusv_st_valid : ptr_valid (p_verb (init plusv)) = true := eq_refl.

Lemma fmt_valid_ni L sp v v' :
  same_public true v v' -> ptr_valid (f_verb sp) = true -> fmt_value L sp v = fmt_value L sp v'.
Proof. intros H Hv. apply (fmt_ni L _ _ _ _ H). right. now left. Qed.

Fixpoint group_text (pk : string) (attrs : list (string * lv)) : string :=
  match attrs with
  | [] => ""
  | (k, y) :: r => (log_text pk k y ++ group_text pk r)%string
  end.

Lemma log_text_group prefix key attrs :
  log_text prefix key (LGroup attrs) = group_text (prefix ++ key ++ ".") attrs.
Proof.
  induction attrs as [|[k y] r IH]; [reflexivity|].
  change (log_text prefix key (LGroup ((k, y) :: r)))
    with (log_text (prefix ++ key ++ ".") k y ++ log_text prefix key (LGroup r))%string.
  now rewrite IH.
Qed.

Definition attr_json (ky : string * lv) : string := (json_string false (fst ky) ++ ":" ++ log_json (snd ky))%string.

Lemma log_json_group attrs : log_json (LGroup attrs) = ("{" ++ join "," (map attr_json attrs) ++ "}")%string.
Proof.
  cbn [log_json]. fix_is_map attrs. induction attrs as [|[k y] r IH]; [reflexivity|]. cbn [map]. now rewrite IH.
Qed.

Definition same_lv (x y : lv) : Prop :=
  (forall prefix key, log_text prefix key x = log_text prefix key y) /\ log_json x = log_json y.
Definition same_attr (a b : string * lv) : Prop := fst a = fst b /\ same_lv (snd a) (snd b).

Lemma same_lv_refl x : same_lv x x.
Proof. now split. Qed.

Lemma group_ni attrs attrs' : Forall2 same_attr attrs attrs' -> same_lv (LGroup attrs) (LGroup attrs').
Proof.
  intros H. split.
  - intros prefix key. rewrite !log_text_group. generalize (prefix ++ key ++ ".")%string as pk. intros pk.
    induction H as [|[k y] [k' y'] r r' (E1 & E2 & _) _ IH]; [reflexivity|]. simpl in *. subst.
    now rewrite E2, IH.
  - rewrite !log_json_group. do 3 f_equal.
    apply (map_ext_Forall2 _ _ _ _ _ H). intros [k y] [k' y'] _ (E1 & _ & E3). simpl in *. subst.
    unfold attr_json. simpl. now rewrite E3.
Qed.

Lemma single_attr k x y : same_lv x y -> Forall2 same_attr [(k, x)] [(k, y)].
Proof. intros H. constructor; [|constructor]. now split. Qed.

Lemma lany_ni v v' : same_public true v v' -> same_lv (LAny v) (LAny v').
Proof.
  intros Hs. split.
  - intros. simpl. now rewrite (fmt_valid_ni std plusv _ _ Hs eq_refl).
  - simpl. now rewrite (json_ni _ _ _ Hs).
Qed.

Lemma log_value_shape m v v' : same_public m v v' ->
  log_value v = log_value v' \/ (log_value v = LAny v /\ log_value v' = LAny v').
Proof.
  intros H. induction H as [| | | | |x x' Hx _| |] using same_public_ind'; auto.
  rewrite !log_value_ptr. destruct (same_public_shape _ _ _ Hx) as (_ & <- & _). destruct (is_redacted x); auto.
Qed.

Lemma log_value_ni v v' : same_public true v v' -> same_lv (log_value v) (log_value v').
Proof.
  intros Hs. destruct (log_value_shape _ _ _ Hs) as [->|[-> ->]]; [apply same_lv_refl|now apply lany_ni].
Qed.

Lemma same_fields_obj fs fs' last : same_fields fs fs' -> same_public true (fields_obj fs last) (fields_obj fs' last).
Proof. intros H. unfold fields_obj. rewrite (Forall2_len _ _ _ H). now apply same_public_fields. Qed.

Lemma fields_log_ni fs fs' : same_fields fs fs' -> same_lv (fields_log fs) (fields_log fs').
Proof.
  intros H. apply group_ni, Forall2_map, (Forall2_impl_In _ _ _ _ H).
  intros a b _ [E Hv]. split; [simpl; now rewrite E|now apply log_value_ni].
Qed.

Lemma detail_value_ni indent v v' : same_public true v v' -> detail_value indent v = detail_value indent v'.
Proof. intros H. unfold detail_value. now rewrite (fmt_valid_ni std plusv _ _ H eq_refl). Qed.

Lemma details_fields_ni indent fs fs' : same_fields fs fs' -> details_fields indent fs = details_fields indent fs'.
Proof.
  intros H. unfold details_fields. rewrite (map_ext_Forall2 _ _ _ _ _ H (fun a b _ Hab =>
    f_equal2 (fun k d => nl ++ indent ++ "  " ++ k_name k ++ ": " ++ d)%string (proj1 Hab) (detail_value_ni indent _ _ (proj2 Hab)))).
  now destruct H.
Qed.

Lemma details_ni indent m k fs fs' hc : same_fields fs fs' -> details indent m k fs hc = details indent m k fs' hc.
Proof.
  intros H. unfold details. now rewrite (details_fields_ni _ _ _ H), (Forall2_len _ _ _ H).
Qed.

Section ErrInd.
Variable P : err -> Prop.
Hypothesis Hdef : forall m k fs last cs, (forall c, In c cs -> P c) -> P (EDef m k fs last cs).
Hypothesis Hother : forall m t cs, (forall c, In c cs -> P c) -> P (EOther m t cs).
Fixpoint err_ind' (e : err) : P e :=
  match e with
  | EDef m k fs last cs => Hdef m k fs last cs (in_all P (fun c => err_ind' c) cs)
  | EOther m t cs => Hother m t cs (in_all P (fun c => err_ind' c) cs)
  end.
End ErrInd.

Fixpoint same_err (e e' : err) {struct e} : Prop :=
  match e, e' with
  | EDef m k fs last cs, EDef m' k' fs' last' cs' =>
      m = m' /\ k = k' /\ last = last' /\ same_fields fs fs' /\
      (fix go (cs cs' : list err) : Prop :=
         match cs, cs' with
         | [], [] => True
         | c :: r, c' :: r' => same_err c c' /\ go r r'
         | _, _ => False
         end) cs cs'
  | EOther m t cs, EOther m' t' cs' =>
      m = m' /\ t = t' /\
      (fix go (cs cs' : list err) : Prop :=
         match cs, cs' with
         | [], [] => True
         | c :: r, c' :: r' => same_err c c' /\ go r r'
         | _, _ => False
         end) cs cs'
  | _, _ => False
  end.

Lemma same_err_ind' (P : err -> err -> Prop) :
  (forall m k fs fs' last cs cs', same_fields fs fs' -> Forall2 (fun c c' => same_err c c' /\ P c c') cs cs' ->
     P (EDef m k fs last cs) (EDef m k fs' last cs')) ->
  (forall m t cs cs', Forall2 (fun c c' => same_err c c' /\ P c c') cs cs' -> P (EOther m t cs) (EOther m t cs')) ->
  forall e e', same_err e e' -> P e e'.
Proof.
  intros Hdef Hother. induction e using err_ind'; intros [] Hs; try contradiction.
  - destruct Hs as (<- & <- & <- & Hf & Hc%go_Forall2). apply Hdef; [exact Hf|].
    apply (Forall2_impl_In _ _ _ _ Hc). intros c c' Hin Hcc. split; [exact Hcc|now apply H].
  - destruct Hs as (<- & <- & Hc%go_Forall2). apply Hother.
    apply (Forall2_impl_In _ _ _ _ Hc). intros c c' Hin Hcc. split; [exact Hcc|now apply H].
Qed.

Definition causes_block (hind nind : string) (cs : list err) : string :=
  (causes_header hind (List.length cs) ++ format_nodes nind 1%nat cs)%string.

Lemma node_body_eq indent e :
  node_body indent e =
  let ind := (indent ++ "    ")%string in
  match e with
  | EDef m k fs _ cs => (details ind m k fs (nonempty cs) ++ (if nonempty cs then causes_block ind ind cs else ""))%string
  | EOther m _ cs => (m ++ (if nonempty cs then (nl ++ ind ++ "---" ++ causes_block ind ind cs)%string else ""))%string
  end.
Proof.
  destruct e as [m k fs last cs|m t cs]; cbn [node_body]; cbv zeta; unfold causes_block.
  all: match goal with |- context [?go 1%nat ?l] =>
         replace (go 1%nat l) with (format_nodes (indent ++ "    ") 1%nat l); [reflexivity|] end.
  all: generalize 1%nat; induction cs as [|c r IH]; intros i; [reflexivity|]; cbn [format_nodes]; now rewrite IH.
Qed.

Lemma causes_block_ni R hind nind cs cs' :
  Forall2 R cs cs' -> (forall c c', R c c' -> forall ind, node_body ind c = node_body ind c') ->
  causes_block hind nind cs = causes_block hind nind cs'.
Proof.
  intros H HR. unfold causes_block. rewrite (Forall2_len _ _ _ H). f_equal. generalize 1%nat.
  induction H as [|c c' r r' Hcc _ IH]; intros i; [reflexivity|]. cbn [format_nodes]. now rewrite (HR _ _ Hcc), IH.
Qed.

Lemma node_body_ni e e' : same_err e e' -> forall indent, node_body indent e = node_body indent e'.
Proof.
  intros H. induction H as [m k fs fs' last cs cs' Hf Hc|m t cs cs' Hc] using same_err_ind'; intros indent;
    rewrite !node_body_eq; cbv zeta;
    rewrite (Forall2_nonempty _ _ _ Hc), (causes_block_ni _ _ _ _ _ Hc (fun _ _ H => proj2 H)); [|reflexivity].
  now rewrite (details_ni _ _ _ _ _ _ Hf).
Qed.

Lemma err_plusv_ni e e' : same_err e e' -> err_plusv e = err_plusv e'.
Proof.
  intros H. induction H as [m k fs fs' last cs cs' Hf Hc|] using same_err_ind'; [|reflexivity].
  unfold err_plusv. fold (causes_block "" "  " cs) (causes_block "" "  " cs').
  now rewrite (details_ni _ _ _ _ _ _ Hf), (Forall2_nonempty _ _ _ Hc),
    (causes_block_ni _ _ _ _ _ Hc (fun c c' H => node_body_ni c c' (proj1 H))).
Qed.

Definition causes_json (cs : list err) : list (string * json) :=
  match cs with [] => [] | _ => [("causes", JArr (map err_json cs))] end.

Lemma err_json_eq e :
  err_json e =
  match e with
  | EDef m k fs last cs =>
      JObj ([("message", JStr m)] ++ (if str_eqb k "" then [] else [("kind", JStr k)]) ++
            (match fs with [] => [] | _ => [("fields", to_json (fields_obj fs last))] end) ++ causes_json cs)
  | EOther m t cs => JObj ([("message", JStr m); ("type", JStr t)] ++ causes_json cs)
  end.
Proof. destruct e as [m k fs last [|c r]|m t [|c r]]; reflexivity. Qed.

Lemma err_json_ni e e' : same_err e e' -> err_json e = err_json e'.
Proof.
  intros H. induction H as [m k fs fs' last cs cs' Hf Hc|m t cs cs' Hc] using same_err_ind'; rewrite !err_json_eq;
    unfold causes_json; rewrite (map_ext_Forall2 _ _ _ _ _ Hc (fun c c' _ H => proj2 H));
    [rewrite (json_ni _ _ _ (same_fields_obj _ _ last Hf)); destruct Hf|]; now destruct Hc.
Qed.

(* the attributes that err_log and node_log share *)
Definition def_attrs (m k : string) (fs : fields) : list (string * lv) :=
  [("message", LStr m)] ++ (if str_eqb k "" then [] else [("kind", LStr k)]) ++
  (match fs with [] => [] | _ => [("fields", fields_log fs)] end).

Lemma def_attrs_ni m k fs fs' : same_fields fs fs' -> Forall2 same_attr (def_attrs m k fs) (def_attrs m k fs').
Proof.
  intros Hf. pose proof (fields_log_ni _ _ Hf) as Hl. repeat apply Forall2_app.
  - apply single_attr, same_lv_refl.
  - destruct (str_eqb k ""); [constructor|]. apply single_attr, same_lv_refl.
  - destruct Hf; [constructor|]. now apply single_attr.
Qed.

Lemma err_log_ni e e' : same_err e e' -> same_lv (err_log e) (err_log e').
Proof.
  intros H. induction H as [m k fs fs' last cs cs' Hf _|] using same_err_ind'; [|apply same_lv_refl].
  now apply group_ni, def_attrs_ni.
Qed.

(* slogValueToAny of a cause *)
Definition cause_vals (cs : list err) : val := VSlice (map (fun c => VIface (node_any c)) cs).
Definition causes_any (cs : list err) : list (string * val) :=
  match cs with [] => [] | _ => [("causes", VIface (cause_vals cs))] end.

Lemma node_any_eq e :
  node_any e =
  match e with
  | EDef m k fs last cs =>
      VMap "map[string]interface {}"
        (causes_any cs ++ (match fs with [] => [] | _ => [("fields", VIface (fields_obj fs last))] end) ++
         (if str_eqb k "" then [] else [("kind", VIface (VStr k))]) ++ [("message", VIface (VStr m))])
  | EOther m _ cs => VMap "map[string]interface {}" (causes_any cs ++ [("message", VIface (VStr m))])
  end.
Proof.
  destruct e as [m k fs last [|c r]|m t [|c r]]; reflexivity.
Qed.

Lemma same_entry_refl (a : string * val) : same_entry a a.
Proof. split; [reflexivity|apply same_public_refl]. Qed.

Lemma single_entry (k : string) x y : same_public true x y -> Forall2 same_entry [(k, x)] [(k, y)].
Proof. intros H. constructor; [|constructor]. now split. Qed.

Lemma cause_vals_ni R cs cs' :
  Forall2 R cs cs' -> (forall c c', R c c' -> same_public true (node_any c) (node_any c')) ->
  same_public true (cause_vals cs) (cause_vals cs').
Proof. intros H HR. apply same_public_slice, Forall2_map, (Forall2_impl_In _ _ _ _ H). intros c c' _. apply HR. Qed.

Lemma node_any_ni e e' : same_err e e' -> same_public true (node_any e) (node_any e').
Proof.
  intros H. induction H as [m k fs fs' last cs cs' Hf Hc|m t cs cs' Hc] using same_err_ind'; rewrite !node_any_eq;
    apply same_public_map; pose proof (cause_vals_ni _ _ _ Hc (fun _ _ H => proj2 H)) as Hv; repeat apply Forall2_app;
    try (apply Forall2_refl_In; intros; apply same_entry_refl);
    try (unfold causes_any; destruct Hc; [constructor|now apply single_entry]).
  pose proof (same_fields_obj _ _ last Hf) as Ho. destruct Hf; [constructor|]. now apply single_entry.
Qed.

(* Node.LogValue *)
Definition cause_attrs (cs : list err) : list (string * lv) :=
  match cs with [] => [] | _ => [("causes", LAny (cause_vals cs))] end.

Lemma node_log_eq e :
  node_log e = LGroup ((match e with EDef m k fs _ _ => def_attrs m k fs | EOther m _ _ => [("message", LStr m)] end)
                       ++ cause_attrs (err_causes e)).
Proof. destruct e; unfold node_log, def_attrs; cbn [err_causes]; [now rewrite <- !app_assoc|reflexivity]. Qed.

Lemma cause_attrs_ni cs cs' : Forall2 same_err cs cs' -> Forall2 same_attr (cause_attrs cs) (cause_attrs cs').
Proof.
  intros Hc. pose proof (cause_vals_ni _ _ _ Hc node_any_ni) as Hv.
  destruct Hc; [constructor|]. now apply single_attr, lany_ni.
Qed.

Lemma node_log_ni e e' : same_err e e' -> same_lv (node_log e) (node_log e').
Proof.
  intros H. rewrite !node_log_eq. apply group_ni.
  induction H as [m k fs fs' last cs cs' Hf Hc|m t cs cs' Hc] using same_err_ind'; apply Forall2_app;
    try (apply cause_attrs_ni, (Forall2_impl_In _ _ _ _ Hc); now intros c c' _ [H _]).
  - now apply def_attrs_ni.
  - apply single_attr, same_lv_refl.
Qed.

Inductive vsink :=
| KFmt (L : leaves) (sp : fspec)       (* fmt.Sprintf(directive, Value()), any rendering of the public leaves *)
| KDetail (indent : string)            (* the value inside formatErrorDetails *)
| KJson                                (* json.Marshal(Value()) *)
| KLogText (prefix key : string)       (* slog.TextHandler, attribute key=Value() *)
| KLogJson.                            (* slog.JSONHandler *)

Definition run_vsink (k : vsink) (v : val) : string :=
  match k with
  | KFmt L sp => fmt_value L sp v
  | KDetail indent => detail_value indent v
  | KJson => json_value v
  | KLogText prefix key => log_text prefix key (log_value v)
  | KLogJson => log_json (log_value v)
  end.

(* the domain on which the statement of C15 speaks about a sink *)
Definition vsink_dom (k : vsink) (v : val) : Prop :=
  match k with
  | KFmt _ sp => ptr_valid (f_verb sp) = true \/ ptrs_guarded true v = true
  | _ => True
  end.

Lemma vsink_ni k v v' : same_public true v v' -> vsink_dom k v -> run_vsink k v = run_vsink k v'.
Proof.
  intros Hs Hd. destruct k; simpl.
  - apply (fmt_ni _ _ _ _ _ Hs). right. exact Hd.
  - now apply detail_value_ni.
  - unfold json_value. now rewrite (json_ni _ _ _ Hs).
  - apply (log_value_ni _ _ Hs).
  - apply (log_value_ni _ _ Hs).
Qed.

(* the error is built without stack trace *)
Inductive esink :=
| EPlusV                               (* fmt.Sprintf("%+v", err) *)
| EJson (html : bool)                  (* json.Marshal(err), Node.MarshalJSON *)
| ELogText (prefix key : string)
| ELogJson
| ENodeLogText (prefix key : string)   (* slog text of a Node holding the error (slogValueToAny for its causes) *)
| ENodeLogJson.

Definition run_esink (k : esink) (e : err) : string :=
  match k with
  | EPlusV => err_plusv e
  | EJson html => json_render html (err_json e)
  | ELogText prefix key => log_text prefix key (err_log e)
  | ELogJson => log_json (err_log e)
  | ENodeLogText prefix key => log_text prefix key (node_log e)
  | ENodeLogJson => log_json (node_log e)
  end.

Lemma esink_ni k e e' : same_err e e' -> run_esink k e = run_esink k e'.
Proof.
  intros Hs. destruct k; simpl.
  - now apply err_plusv_ni.
  - now rewrite (err_json_ni _ _ Hs).
  - apply (err_log_ni _ _ Hs).
  - apply (err_log_ni _ _ Hs).
  - apply (node_log_ni _ _ Hs).
  - apply (node_log_ni _ _ Hs).
Qed.

Lemma placeholder_shown L sp top indent prefix key p :
  fmt_at L (init sp) true top (VRedacted p) = placeholder /\
  fmt_at L (init sp) true top (VPtr (VRedacted p)) = placeholder /\
  detail_value indent (VRedacted p) = placeholder /\
  json_value (VRedacted p) = json_string true placeholder /\
  json_value (VPtr (VRedacted p)) = json_string true placeholder /\
  marshal_text (VRedacted p) = Some placeholder /\
  marshal_binary (VRedacted p) = Some placeholder /\
  log_text prefix key (log_value (VRedacted p)) = (" " ++ prefix ++ key ++ "=" ++ placeholder)%string /\
  log_json (log_value (VRedacted p)) = json_string false placeholder.
Proof. repeat split. Qed.

Lemma placeholder_in_struct L st top n fs fn p :
  In (fn, true, VRedacted p) fs ->
  fmt_at L st true top (VStruct n fs) = struct_shell st n (map (fmt_field L st true) fs) /\
  In (fn, placeholder) (map (fmt_field L st true) fs).
Proof. intros H. split; [apply fmt_struct_eq|]. exact (in_map (fmt_field L st true) _ _ H). Qed.

Lemma placeholder_in_map L st top tn kvs k p :
  In (k, VIface (VRedacted p)) kvs ->
  fmt_at L st true top (VMap tn kvs) = map_shell st tn (map (fmt_entry L st true) kvs) /\
  In (l_str L st k, placeholder) (map (fmt_entry L st true) kvs).
Proof. intros H. split; [apply fmt_map_eq|]. exact (in_map (fmt_entry L st true) _ _ H). Qed.

Lemma placeholder_in_slice L st top l p :
  In (VIface (VRedacted p)) l ->
  fmt_at L st true top (VSlice l) = slice_shell st (map (fmt_at L st true false) l) /\
  In placeholder (map (fmt_at L st true false) l).
Proof. intros H. split; [apply fmt_slice_eq|]. exact (in_map (fmt_at L st true false) _ _ H). Qed.

Lemma ins_sorted_in {A} k (x : A) l : In (k, x) (ins_sorted k x l).
Proof.
  induction l as [|[k' y] r IH]; simpl; [now left|].
  destruct (String.compare k k'); simpl; auto.
Qed.

Lemma ins_sorted_keep {A} k (x : A) l n j : n <> k -> In (n, j) l -> In (n, j) (ins_sorted k x l).
Proof.
  intros Hne. induction l as [|[k' y] r IH]; simpl; [tauto|].
  intros [E|H].
  - inversion E; subst. destruct (String.compare k n) eqn:C; simpl; auto.
    apply String.compare_eq_iff in C. now subst.
  - destruct (String.compare k k'); simpl; auto.
Qed.

Lemma ins_all_Forall {A} (P : string * A -> Prop) l : forall acc, Forall P l -> Forall P acc -> Forall P (ins_all l acc).
Proof.
  induction l as [|[k x] l IH]; intros acc Hl Hacc; [exact Hacc|]. inversion Hl; subst. apply IH; [assumption|].
  clear IH Hl. induction Hacc as [|[k' y] r Hy Hr IHr]; simpl; [now constructor|].
  destruct (String.compare k k'); repeat constructor; assumption.
Qed.

Lemma ins_all_in {A} n (x : A) l : forall acc,
  (forall j, In (n, j) l -> j = x) -> In (n, x) l \/ In (n, x) acc -> In (n, x) (ins_all l acc).
Proof.
  induction l as [|[k j] l IH]; intros acc Hl H; [now destruct H|]. apply IH; [intros j0 Hj; apply Hl; now right|].
  cbn [fst snd]. destruct (string_dec n k) as [<-|Hne].
  - right. rewrite (Hl j) by now left. apply ins_sorted_in.
  - destruct H as [[E|H]|H]; [congruence|now left|right; now apply ins_sorted_keep].
Qed.

Lemma ins_all_key {A} (l acc : list (string * A)) n j :
  In (n, j) (ins_all l acc) -> In n (map fst l) \/ In n (map fst acc).
Proof.
  intros H.
  assert (F : Forall (fun kv => In (fst kv) (map fst l) \/ In (fst kv) (map fst acc)) (ins_all l acc)).
  { apply ins_all_Forall; apply Forall_forall; intros kv Hkv; [left|right]; exact (in_map fst _ _ Hkv). }
  rewrite Forall_forall in F. exact (F _ H).
Qed.

Definition is_direct (v : val) : Prop := exists p, v = VRedacted p \/ v = VPtr (VRedacted p).

Lemma direct_json v : is_direct v -> to_json v = JStr placeholder.
Proof. intros (p & [->| ->]); reflexivity. Qed.

Lemma restore_placeholder conv name : restore_field conv name (JStr placeholder) = Unknown (JStr placeholder).
Proof. reflexivity. Qed.

Lemma roundtrip_placeholder_iff conv fs last n :
  (forall k v, In (k, v) fs -> k_name k = n -> to_json v = JStr placeholder) ->
  (In (n, Unknown (JStr placeholder)) (restore_fields conv fs last) <-> exists k v, In (k, v) fs /\ k_name k = n) /\
  (forall s, In (n, s) (restore_fields conv fs last) -> s = Unknown (JStr placeholder)).
Proof.
  intros Hd. unfold restore_fields, fields_obj. rewrite json_fields_eq. cbn [obj_entries].
  assert (Hw : forall j, In (n, j) (map (json_entry k_name) fs) -> j = JStr placeholder).
  { intros j ([k0 v0] & [= E <-] & Hj)%in_map_iff. apply (Hd k0 v0 Hj E). }
  split; [split|].
  - intros ([n' j] & [= -> _] & Hj)%in_map_iff. apply ins_all_key in Hj as [Hj|[]].
    rewrite map_map in Hj. apply in_map_iff in Hj as ([k v] & E & Hin). now exists k, v.
  - intros (k & v & Hin & Hk).
    apply (in_map (fun kv => (fst kv, restore_field conv (fst kv) (snd kv))) _ (n, JStr placeholder)).
    apply ins_all_in; [exact Hw|]. left. rewrite <- (Hd k v Hin Hk), <- Hk.
    apply (in_map (json_entry k_name) _ _ Hin).
  - intros s ([n' j] & [= -> <-] & Hj)%in_map_iff. cbn [fst snd].
    enough (Forall (fun kv => fst kv = n -> snd kv = JStr placeholder) (ins_all (map (json_entry k_name) fs) [])) as Hall.
    { rewrite Forall_forall in Hall. now rewrite (Hall (n, j) Hj eq_refl : j = _). }
    apply ins_all_Forall; [|constructor]. apply Forall_forall. intros [n0 j0] H0 E. simpl in E. subst n0. now apply Hw.
Qed.

Lemma roundtrip_ni conv fs fs' last : same_fields fs fs' -> restore_fields conv fs last = restore_fields conv fs' last.
Proof.
  intros Hf. unfold restore_fields. now rewrite (json_ni _ _ _ (same_fields_obj _ _ last Hf)).
Qed.

Definition leak_unexported (p : val) : val := VStruct "T" [("Name", true, VStr "n"); ("tok", false, VRedacted p)].
Definition leak_nested_ptr (p : val) : val :=
  VMap "map[string]interface {}" [("p", VIface (VPtr (VStruct "S" [("Tok", true, VRedacted p)])))].
Definition leak_fields (p : val) : val :=
  VFields [({| k_name := "tok"; k_ty := "errdef.Redacted[string]"; k_idx := 1 |}, VRedacted p)] 1 [0%nat].

Lemma unexported_leaks :
  fmt_value std (spec_of Vv false false) (leak_unexported (VStr "SECRET")) = "{n {SECRET}}" /\
  fmt_value std (spec_of Vv false false) (leak_unexported (VStr "SECRET"))
    <> fmt_value std (spec_of Vv false false) (leak_unexported (VStr "OTHER")).
Proof. split; [reflexivity|]. vm_compute. discriminate. Qed.

Lemma badverb_nested_ptr_leaks :
  same_public true (leak_nested_ptr (VStr "SECRET")) (leak_nested_ptr (VStr "OTHER")) /\
  fmt_value std (spec_of Vs false false) (leak_nested_ptr (VStr "SECRET")) = "map[p:%!s(*S=&{{SECRET}})]" /\
  fmt_value std (spec_of Vs false false) (leak_nested_ptr (VStr "SECRET"))
    <> fmt_value std (spec_of Vs false false) (leak_nested_ptr (VStr "OTHER")) /\
  fmt_value std (spec_of Vv false false) (leak_nested_ptr (VStr "SECRET")) = "map[p:0xPTR]".
Proof.
  split; [simpl; tauto|]. split; [reflexivity|]. split; [vm_compute; discriminate|reflexivity].
Qed.

Lemma badverb_fields_leaks :
  same_public true (leak_fields (VStr "SECRET")) (leak_fields (VStr "OTHER")) /\
  fmt_value std (spec_of Vs false false) (leak_fields (VStr "SECRET"))
    <> fmt_value std (spec_of Vs false false) (leak_fields (VStr "OTHER")) /\
  fmt_value std (spec_of Vv false false) (leak_fields (VStr "SECRET")) = "&{map[0xPTR:{0xPTR 1}] 1}".
Proof.
  split; [simpl; tauto|]. split; [vm_compute; discriminate|reflexivity].
Qed.

(* No marker because "<" never occurs: [clean] turns concatenation into conjunction, and
   every function of the model that builds text gets a lemma in the hint database [cln]. *)

Lemma clean_app a b : clean (a ++ b) = clean a && clean b.
Proof. exact (all_chars_app _ a b). Qed.

Lemma clean_app_true a b : clean a = true -> clean b = true -> clean (a ++ b) = true.
Proof. intros Ha Hb. now rewrite clean_app, Ha, Hb. Qed.

Lemma clean_if (c : bool) a b : clean a = true -> clean b = true -> clean (if c then a else b) = true.
Proof. now destruct c. Qed.

Lemma clean_no_mark s : clean s = true -> contains mark s = false.
Proof.
  induction s as [|a r IH]; intros H; [reflexivity|]. cbn [clean] in H. apply andb_true_iff in H as [Ha Hr].
  cbn [contains]. rewrite (IH Hr). unfold mark. cbn [String.prefix].
  destruct (Ascii.ascii_dec "<" a) as [<-|_]; [discriminate Ha|reflexivity].
Qed.

Lemma clean_join_map {A} sep (f : A -> string) l :
  clean sep = true -> (forall a, In a l -> clean (f a) = true) -> clean (join sep (map f l)) = true.
Proof.
  intros Hs H. induction l as [|x r IH]; [reflexivity|]. cbn [map join].
  assert (Hx : clean (f x) = true) by (apply H; now left).
  assert (Hr : clean (join sep (map f r)) = true) by (apply IH; intros a Ha; apply H; now right).
  destruct (map f r); [exact Hx|]. now rewrite !clean_app, Hx, Hs, Hr.
Qed.

(* a string literal, possibly ending in one of the model's constants.  Only on such a term is
   [clean _ = true] decided by computation: on a term with a variable the failing conversion
   test can run for minutes. *)
Ltac ground s :=
  lazymatch s with
  | String (Ascii _ _ _ _ _ _ _ _) ?r => ground r
  | EmptyString => idtac | nl => idtac | dq => idtac | bs => idtac | sq => idtac
  | placeholder => idtac | ptr_tok => idtac
  end.

(* a hint applies where its conclusion matches syntactically, never by unfolding the goal *)
Create HintDb cln discriminated.
#[local] Hint Constants Opaque : cln.
#[local] Hint Resolve clean_app_true clean_if : cln.
#[local] Hint Extern 1 (clean ?s = true) => ground s; reflexivity : cln.

Ltac cl :=
  repeat match goal with
         | |- context [clean (?a ++ ?b)] => rewrite (clean_app a b)
         | |- _ && _ = true => apply andb_true_intro; split
         end;
  auto with cln.

Lemma clean_ch n : (n < 256)%N -> n <> 60%N -> clean (String (ascii_of_N n) "") = true.
Proof. intros H Hn. cbn [clean]. rewrite N_ascii_embedding by exact H. now apply N.eqb_neq in Hn as ->. Qed.

Lemma clean_digit d : (d < 10)%N -> negb (N.eqb (N_of_ascii (ascii_of_N (48 + d))) 60) = true.
Proof. intros H. rewrite N_ascii_embedding by lia. apply negb_true_iff, N.eqb_neq. lia. Qed.

Lemma clean_dec n : clean (dec n) = true.
Proof. exact (all_chars_dec _ clean_digit n). Qed.
Lemma clean_dec_nat n : clean (dec_nat n) = true.
Proof. apply clean_dec. Qed.
#[local] Hint Resolve clean_dec clean_dec_nat : cln.
Lemma clean_dec_Z z : clean (dec_Z z) = true.
Proof. exact (all_chars_dec_Z _ clean_digit z eq_refl). Qed.

Lemma clean_hexdig d : (d < 16)%N -> clean (hexdig d) = true.
Proof. intros. unfold hexdig. destruct (N.ltb_spec d 10); apply clean_ch; lia. Qed.

Lemma clean_hex_byte a : clean (hex_byte a) = true.
Proof.
  unfold hex_byte. pose proof (N_ascii_bounded a) as Hb. cl; apply clean_hexdig.
  - apply N.div_lt_upper_bound; lia.
  - now apply N.mod_lt.
Qed.
#[local] Hint Resolve clean_dec_Z clean_hex_byte : cln.

Lemma clean_hex_str s : clean (hex_str s) = true.
Proof. induction s as [|a r IH]; [reflexivity|]. cbn [hex_str]. cl. Qed.

Lemma clean_hex_fuel fuel : forall n acc, clean acc = true -> clean (hex_fuel fuel n acc) = true.
Proof.
  induction fuel as [|f IH]; intros n acc Ha; [exact Ha|]. cbn [hex_fuel]. cbv zeta.
  assert (Hd : clean (hexdig (n mod 16) ++ acc) = true) by (cl; apply clean_hexdig; now apply N.mod_lt).
  destruct (N.ltb n 16); [exact Hd|]. now apply IH.
Qed.
Lemma clean_hex_Z z : clean (hex_Z z) = true.
Proof. unfold hex_Z, hexN. auto using clean_hex_fuel with cln. Qed.
#[local] Hint Resolve clean_hex_str clean_hex_Z : cln.

(* strconv.Quote, json escaping, slog quoting keep a clean string clean: each escapes
   character by character *)
Lemma clean_chars (f : ascii -> string) (g : string -> string) :
  g "" = "" -> (forall a r, g (String a r) = (f a ++ g r)%string) ->
  (forall a, clean (String a "") = true -> clean (f a) = true) -> forall s, clean s = true -> clean (g s) = true.
Proof.
  intros H0 Hg Hf. induction s as [|a r IH]; intros H; [now rewrite H0|]. apply andb_true_iff in H as [Ha Hr].
  rewrite Hg, clean_app, IH, Hf; [reflexivity|cbn [clean]; now rewrite Ha|exact Hr].
Qed.

Lemma clean_esc_str q s : clean s = true -> clean (esc_str q s) = true.
Proof. apply (clean_chars (esc_char q)); auto. intros a Ha. unfold esc_char. auto 16 with cln. Qed.
#[local] Hint Resolve clean_esc_str : cln.

Lemma clean_go_quote s : clean s = true -> clean (go_quote s) = true.
Proof. intros H. unfold go_quote. cl. Qed.

Lemma clean_json_esc html s : clean s = true -> clean (json_esc html s) = true.
Proof. apply (clean_chars (json_esc_char html)); auto. intros a Ha. unfold json_esc_char. auto 12 with cln. Qed.
#[local] Hint Resolve clean_json_esc : cln.

Lemma clean_json_string html s : clean s = true -> clean (json_string html s) = true.
Proof. intros H. unfold json_string. cl. Qed.

Lemma clean_text_quote s : clean s = true -> clean (text_quote s) = true.
Proof. intros H. unfold text_quote. auto using clean_go_quote with cln. Qed.
#[local] Hint Resolve clean_go_quote clean_json_string clean_text_quote : cln.

Lemma clean_verb_chr v : clean (verb_chr v) = true.
Proof. now destruct v. Qed.
#[local] Hint Resolve clean_verb_chr : cln.

Lemma clean_bad_verb st ty body : clean ty = true -> clean body = true -> clean (bad_verb st ty body) = true.
Proof. intros. unfold bad_verb. cl. Qed.
#[local] Hint Resolve clean_bad_verb : cln.

Lemma clean_struct_shell st tn fs :
  clean tn = true -> (forall f, In f fs -> clean (fst f) = true /\ clean (snd f) = true) ->
  clean (struct_shell st tn fs) = true.
Proof. intros Ht Hf. unfold struct_shell. cl. apply clean_join_map; [cl|]. intros f [Ha Hb]%Hf. cl. Qed.

Lemma clean_map_shell st tn kvs :
  clean tn = true -> (forall f, In f kvs -> clean (fst f) = true /\ clean (snd f) = true) ->
  clean (map_shell st tn kvs) = true.
Proof. intros Ht Hf. unfold map_shell. cl. apply clean_join_map; [cl|]. intros f [Ha Hb]%Hf. cl. Qed.

Lemma clean_slice_shell {A} st (f : A -> string) l :
  (forall a, In a l -> clean (f a) = true) -> clean (slice_shell st (map f l)) = true.
Proof. intros H. unfold slice_shell. destruct (p_sharpV st); cl; now apply clean_join_map. Qed.

Lemma clean_std_str st s : clean s = true -> clean (std_str st s) = true.
Proof. intros H. unfold std_str. destruct (p_verb st); cl. Qed.

Lemma clean_std_int st z : clean (go_quote_rune (Z.to_N z)) = true -> clean (std_int st z) = true.
Proof.
  (* [H] is shown to its own goal only: comparing it with another one unfolds [ascii_of_N] on a variable *)
  intros H. unfold std_int.
  destruct (p_verb st); lazymatch goal with |- clean (go_quote_rune _) = true => exact H | _ => clear H; cl end.
Qed.

Lemma clean_std_bool st b : clean (std_bool st b) = true.
Proof. unfold std_bool. destruct (p_verb st); cl. Qed.

Lemma clean_std_addr st ty : clean ty = true -> clean (std_addr st ty) = true.
Proof. intros H. unfold std_addr. destruct (p_verb st); cl. Qed.
#[local] Hint Resolve clean_std_str clean_std_int clean_std_bool clean_std_addr : cln.

Lemma type_str_clean v : pclean v = true -> clean (type_str v) = true.
Proof.
  induction v using val_ind'; intros Hp; cbn [type_str]; cl.
  - now destruct t.
  - now apply andb_true_iff in Hp as [Hn _].
  - now apply andb_true_iff in Hp as [Hn _].
Qed.

Lemma In_pick {A} (l : list A) order x : In x (pick l order) -> In x l.
Proof.
  unfold pick. intros (i & _ & H)%in_flat_map. destruct (nth_error l i) eqn:E; [|contradiction].
  destruct H as [<-|[]]. exact (nth_error_In _ _ E).
Qed.

Lemma fmt_clean : forall v st m top,
  pclean v = true -> wrapped m v = true -> fmt_guard st m top v -> clean (fmt_at std st m top v) = true.
Proof.
  induction v using val_ind'; intros st m top Hp Hw Hg; cbn [pclean wrapped] in Hp, Hw.
  - now apply clean_std_str.
  - now apply clean_std_int.
  - apply clean_std_bool.
  - discriminate Hw.
  - cbn [fmt_at]. destruct m; [reflexivity|].
    apply clean_struct_shell; [now apply (type_str_clean (VRedacted v))|].
    intros f [<-|[]]. split; [reflexivity|]. apply IHv; [exact Hp|exact Hw|now left].
  - rewrite fmt_struct_eq. apply andb_true_iff in Hp as [Hn Hp]. rewrite forallb_forall in Hp, Hw.
    apply clean_struct_shell; [exact Hn|]. intros ? (f & <- & Hin)%in_map_iff.
    pose proof (Hp f Hin) as [Hfn Hx]%andb_true_iff. split; [exact Hfn|].
    apply (H f Hin); [exact Hx|exact (Hw f Hin)|exact (fmt_guard_field _ _ _ _ _ _ Hg Hin)].
  - rewrite fmt_map_eq. apply andb_true_iff in Hp as [Hn Hp]. rewrite forallb_forall in Hp, Hw.
    apply clean_map_shell; [exact Hn|]. intros ? (kv & <- & Hin)%in_map_iff.
    pose proof (Hp kv Hin) as [Hk Hx]%andb_true_iff. split; [now apply clean_std_str|].
    apply (H kv Hin); [exact Hx|exact (Hw kv Hin)|exact (fmt_guard_entry _ _ _ _ _ _ Hg Hin)].
  - rewrite fmt_slice_eq. rewrite forallb_forall in Hp, Hw.
    apply clean_slice_shell. intros x Hin. apply (H x Hin); [now apply Hp|now apply Hw|exact (fmt_guard_elem _ _ _ _ _ Hg Hin)].
  - cbn [fmt_at]. destruct (m && is_redacted v) eqn:Emr; [reflexivity|]. cbn [orb] in Hw.
    pose proof (type_str_clean (VPtr v) Hp) as Ht. destruct (fmt_guard_ptr _ _ _ _ Hg Emr) as [G1 G2].
    destruct (top && composite v) eqn:Etc; [cl; now apply IHv; [| |apply G1]|].
    unfold fmt_pointer. destruct (ptr_valid (p_verb st)) eqn:Ev; [now apply clean_std_addr|].
    apply clean_bad_verb; [exact Ht|]. destruct (composite v) eqn:Ec; [|now apply clean_std_addr].
    rewrite (G2 eq_refl eq_refl eq_refl) in Hw. cl. apply IHv; [exact Hp|exact Hw|now left].
  - cbn [fmt_at]. now apply IHv.
  - apply andb_true_iff in Hw as [-> Hw]. apply fmt_guard_fields in Hg.
    apply andb_true_iff in Hp as [Hlast Hp]. rewrite forallb_forall in Hp.
    assert (B : forall st0, ptr_valid (p_verb st0) = true -> clean (fields_body std st0 fs last ord) = true).
    { intros st0 Hv. unfold fields_body. cl. apply clean_struct_shell; [reflexivity|].
      intros f [<-|[<-|[]]]; (split; [reflexivity|]); cbn [snd]; [|now apply clean_std_int].
      apply clean_map_shell; [reflexivity|]. intros ? (kv & <- & Hin)%In_pick%in_map_iff.
      pose proof (Hp kv Hin) as [[[Hkn Hkt]%andb_true_iff Hki]%andb_true_iff Hx]%andb_true_iff.
      unfold fields_entry. rewrite !fmt_pointer_valid by exact Hv. cbn [fst snd l_addr l_int std]. split; [cl|].
      apply clean_struct_shell; [reflexivity|]. intros f [<-|[<-|[]]]; (split; [reflexivity|]); cbn [snd]; cl. }
    rewrite fmt_fields_eq, fmt_pointer_valid by exact Hg. destruct top; [now apply B|now apply clean_std_addr].
Qed.

Section JsonInd.
Variable P : json -> Prop.
Hypothesis Hnull : P JNull.
Hypothesis Hbool : forall b, P (JBool b).
Hypothesis Hnum : forall z, P (JNum z).
Hypothesis Hraw : forall s, P (JRaw s).
Hypothesis Hstr : forall s, P (JStr s).
Hypothesis Harr : forall l, (forall x, In x l -> P x) -> P (JArr l).
Hypothesis Hobj : forall kvs, (forall kv, In kv kvs -> P (snd kv)) -> P (JObj kvs).
Hypothesis Hhtml : forall j, P j -> P (JHtml j).
Fixpoint json_ind' (j : json) : P j :=
  match j with
  | JNull => Hnull | JBool b => Hbool b | JNum z => Hnum z | JRaw s => Hraw s | JStr s => Hstr s
  | JArr l => Harr l (in_all P (fun x => json_ind' x) l)
  | JObj kvs => Hobj kvs (in_all (fun kv => P (snd kv)) (fun kv => json_ind' (snd kv)) kvs)
  | JHtml x => Hhtml x (json_ind' x)
  end.
End JsonInd.

Fixpoint jclean (j : json) : bool :=
  match j with
  | JRaw s | JStr s => clean s
  | JArr l => forallb jclean l
  | JObj kvs => forallb (fun kv => clean (fst kv) && jclean (snd kv)) kvs
  | JHtml x => jclean x
  | _ => true
  end.

Lemma json_arr_eq html l : json_render html (JArr l) = ("[" ++ join "," (map (json_render html) l) ++ "]")%string.
Proof. reflexivity. Qed.

Definition member_text html (kv : string * json) : string :=
  (json_string html (fst kv) ++ ":" ++ json_render html (snd kv))%string.

Lemma json_obj_eq html kvs :
  json_render html (JObj kvs) = ("{" ++ join "," (map (member_text html) kvs) ++ "}")%string.
Proof.
  cbn [json_render]. fix_is_map kvs. induction kvs as [|[k x] r IH]; [reflexivity|]. cbn [map]. now rewrite IH.
Qed.

Lemma json_render_clean : forall j html, jclean j = true -> clean (json_render html j) = true.
Proof.
  induction j using json_ind'; intros html Hj; cbn [jclean] in Hj; try (cbn [json_render]; cl; fail).
  - rewrite json_arr_eq. rewrite forallb_forall in Hj. cl. apply clean_join_map; [reflexivity|].
    intros x Hin. now apply H, Hj.
  - rewrite json_obj_eq. rewrite forallb_forall in Hj. cl. apply clean_join_map; [reflexivity|].
    intros kv Hin. pose proof (Hj kv Hin) as [Hk Hx]%andb_true_iff. unfold member_text. cl.
Qed.

Lemma jclean_app a b :
  forallb (fun kv : string * json => clean (fst kv) && jclean (snd kv)) (a ++ b) =
  forallb (fun kv => clean (fst kv) && jclean (snd kv)) a && forallb (fun kv => clean (fst kv) && jclean (snd kv)) b.
Proof. apply forallb_app. Qed.

Lemma to_json_clean : forall v, pclean v = true -> wrapped true v = true -> jclean (to_json v) = true.
Proof.
  induction v using val_ind'; intros Hp Hw; cbn [pclean wrapped andb] in Hp, Hw; try reflexivity.
  - exact Hp.
  - discriminate Hw.
  - rewrite json_struct_eq. cbn [jclean]. apply andb_true_iff in Hp as [_ Hp]. rewrite forallb_forall in Hp, Hw.
    apply forallb_forall. intros kv (? & (f & <- & Hin)%in_map_iff & Hkv)%in_concat.
    pose proof (Hp f Hin) as [Hfn Hx]%andb_true_iff. specialize (Hw f Hin).
    unfold json_field in Hkv. destruct (snd (fst f)); [|contradiction]. destruct Hkv as [<-|[]].
    cbn [fst snd]. now rewrite Hfn, (H f Hin Hx Hw).
  - rewrite json_map_eq. cbn [jclean]. apply andb_true_iff in Hp as [_ Hp]. rewrite forallb_forall in Hp, Hw.
    apply forallb_forall. intros ? (kv & <- & Hin)%in_map_iff.
    pose proof (Hp kv Hin) as [Hk Hx]%andb_true_iff. unfold json_entry. cbn [fst snd]. now rewrite Hk, (H kv Hin Hx (Hw kv Hin)).
  - cbn [to_json jclean]. rewrite forallb_forall in Hp, Hw. apply forallb_forall. intros ? (x & <- & Hin)%in_map_iff.
    apply (H x Hin); [now apply Hp|now apply Hw].
  - cbn [to_json]. destruct v; try discriminate; try reflexivity; now apply IHv.
  - now apply IHv.
  - rewrite json_fields_eq. cbn [jclean]. apply andb_true_iff in Hp as [_ Hp]. rewrite forallb_forall in Hp, Hw.
    apply forallb_forall, Forall_forall, ins_all_Forall; [|constructor].
    apply Forall_forall. intros ? (kv & <- & Hin)%in_map_iff.
    pose proof (Hp kv Hin) as [[[Hkn _]%andb_true_iff _]%andb_true_iff Hx]%andb_true_iff.
    unfold json_entry. cbn [fst snd]. now rewrite Hkn, (H kv Hin Hx (Hw kv Hin)).
Qed.

Lemma json_value_clean v : pclean v = true -> wrapped true v = true -> clean (json_value v) = true.
Proof. intros. unfold json_value. apply json_render_clean. now apply to_json_clean. Qed.

Section LvInd.
Variable P : lv -> Prop.
Hypothesis Hs : forall s, P (LStr s).
Hypothesis Hi : forall z, P (LInt z).
Hypothesis Hb : forall b, P (LBool b).
Hypothesis Hr : forall s, P (LRaw s).
Hypothesis Ha : forall v, P (LAny v).
Hypothesis Hg : forall attrs, (forall ky, In ky attrs -> P (snd ky)) -> P (LGroup attrs).
Fixpoint lv_ind' (x : lv) : P x :=
  match x with
  | LStr s => Hs s | LInt z => Hi z | LBool b => Hb b | LRaw s => Hr s | LAny v => Ha v
  | LGroup attrs => Hg attrs (in_all (fun ky => P (snd ky)) (fun ky => lv_ind' (snd ky)) attrs)
  end.
End LvInd.

Fixpoint lvclean (x : lv) : bool :=
  match x with
  | LStr s | LRaw s => clean s
  | LAny v => pclean v && wrapped true v
  | LGroup attrs => forallb (fun ky => clean (fst ky) && lvclean (snd ky)) attrs
  | _ => true
  end.

Lemma plusv_clean v : pclean v = true -> wrapped true v = true -> clean (fmt_value std plusv v) = true.
Proof. intros. apply fmt_clean; [assumption..|]. right. left. reflexivity. Qed.
#[local] Hint Resolve plusv_clean json_render_clean to_json_clean : cln.

Lemma log_text_clean : forall x prefix key,
  lvclean x = true -> clean prefix = true -> clean key = true -> clean (log_text prefix key x) = true.
Proof.
  induction x using lv_ind'; intros prefix key Hx Hp Hk; cbn [lvclean] in Hx;
    try apply andb_true_iff in Hx as [A B]; try (cbn [log_text]; cl; fail).
  rewrite log_text_group. rewrite forallb_forall in Hx.
  assert (Hpk : clean (prefix ++ key ++ ".") = true) by cl. revert Hpk. generalize (prefix ++ key ++ ".")%string.
  intros pk Hpk. induction attrs as [|[k y] r IH]; [reflexivity|]. cbn [group_text].
  pose proof (Hx (k, y) (or_introl eq_refl)) as [Hk1 Hy]%andb_true_iff. cl.
  - now apply (H (k, y)); [left|..].
  - apply IH; [intros x Hin; apply H; now right | intros x Hin; apply Hx; now right].
Qed.

Lemma log_json_clean : forall x, lvclean x = true -> clean (log_json x) = true.
Proof.
  induction x using lv_ind'; intros Hx; cbn [lvclean] in Hx;
    try apply andb_true_iff in Hx as [A B]; try (cbn [log_json]; cl; fail).
  rewrite log_json_group. rewrite forallb_forall in Hx. cl. apply clean_join_map; [reflexivity|].
  intros ky Hin. pose proof (Hx ky Hin) as [Hk Hy]%andb_true_iff. unfold attr_json. cl.
Qed.

Lemma log_value_clean v : pclean v = true -> wrapped true v = true -> lvclean (log_value v) = true.
Proof.
  intros Hp Hw. assert (A : lvclean (LAny v) = true) by (cbn [lvclean]; now rewrite Hp, Hw).
  destruct v; try exact A; try reflexivity.
  - exact Hp.
  - discriminate Hw.
  - rewrite log_value_ptr. now destruct (is_redacted v).
Qed.

Lemma log_line_text_clean key x : lvclean x = true -> clean key = true -> clean (log_line_text key x) = true.
Proof. intros Hx Hk. unfold log_line_text. cl. apply clean_if; [reflexivity|]. now apply log_text_clean. Qed.

Lemma log_line_json_clean key x : lvclean x = true -> clean key = true -> clean (log_line_json key x) = true.
Proof. intros Hx Hk. unfold log_line_json. cl. apply clean_if; [reflexivity|]. cl. now apply log_json_clean. Qed.

Lemma wf_fields_all fs last : wf_fields fs last = true ->
  forall kv, In kv fs -> clean (k_name (fst kv)) = true /\ pclean (snd kv) = true /\ wrapped true (snd kv) = true.
Proof.
  unfold wf_fields. intros [[_ Hp]%andb_true_iff Hw]%andb_true_iff kv Hin. rewrite forallb_forall in Hp, Hw.
  pose proof (Hp kv Hin) as [[[Hn _]%andb_true_iff _]%andb_true_iff Hx]%andb_true_iff. auto.
Qed.

Lemma wf_fields_obj fs last : wf_fields fs last = true ->
  pclean (fields_obj fs last) = true /\ wrapped true (fields_obj fs last) = true.
Proof. intros H. exact (proj1 (andb_true_iff _ _) H). Qed.

Lemma fields_log_clean fs last : wf_fields fs last = true -> lvclean (fields_log fs) = true.
Proof.
  intros H. apply forallb_forall. intros ? (kv & <- & Hin)%in_map_iff.
  destruct (wf_fields_all _ _ H _ Hin) as (A & B & C). cbn [fst snd]. now rewrite A, log_value_clean.
Qed.

Lemma split_on_clean c s : clean s = true -> forall x, In x (split_on c s) -> clean x = true.
Proof.
  induction s as [|a r IH]; intros H x; [now intros [<-|[]]|].
  cbn [clean] in H. apply andb_true_iff in H as [Ha Hr]. specialize (IH Hr). cbn [split_on].
  destruct (Ascii.eqb a c); [intros [<-|Hx]; [reflexivity|now apply IH]|].
  destruct (split_on c r) as [|y t]; (intros [<-|Hx]; [cbn [clean]; rewrite Ha|]).
  - reflexivity.
  - destruct Hx.
  - apply IH. now left.
  - apply IH. now right.
Qed.

Lemma detail_value_clean indent v :
  clean indent = true -> pclean v = true -> wrapped true v = true -> clean (detail_value indent v) = true.
Proof.
  intros Hi Hp Hw. unfold detail_value. apply clean_if; cl.
  apply clean_join_map; [reflexivity|]. intros line Hl%split_on_clean; cl.
Qed.

Lemma details_fields_clean indent fs last :
  clean indent = true -> wf_fields fs last = true -> clean (details_fields indent fs) = true.
Proof.
  intros Hi Hw. unfold details_fields. destruct fs as [|kv0 r0] eqn:E; [reflexivity|]. rewrite <- E in *.
  cl. apply clean_join_map; [reflexivity|]. intros kv Hin. destruct (wf_fields_all _ _ Hw _ Hin) as (A & B & C). cl.
  now apply detail_value_clean.
Qed.

Lemma details_clean indent m k fs last hc :
  clean indent = true -> clean m = true -> clean k = true -> wf_fields fs last = true ->
  clean (details indent m k fs hc) = true.
Proof. intros Hi Hm Hk Hw. unfold details. cl. now apply (details_fields_clean indent fs last). Qed.

Lemma causes_header_clean indent n : clean indent = true -> clean (causes_header indent n) = true.
Proof. intros. unfold causes_header. cl. Qed.
#[local] Hint Resolve causes_header_clean : cln.

Fixpoint eclean (e : err) : bool :=
  match e with
  | EDef m k fs last cs => clean m && clean k && wf_fields fs last && forallb eclean cs
  | EOther m t cs => clean m && clean t && forallb eclean cs
  end.

Lemma eclean_ind' (P : err -> Prop) :
  (forall m k fs last cs, clean m = true -> clean k = true -> wf_fields fs last = true ->
     Forall (fun c => eclean c = true /\ P c) cs -> P (EDef m k fs last cs)) ->
  (forall m t cs, clean m = true -> clean t = true -> Forall (fun c => eclean c = true /\ P c) cs -> P (EOther m t cs)) ->
  forall e, eclean e = true -> P e.
Proof.
  intros Hdef Hother. induction e using err_ind'; cbn [eclean]; intros He.
  - apply andb_true_iff in He as [[[Hm Hk]%andb_true_iff Hw]%andb_true_iff Hcs]. rewrite forallb_forall in Hcs.
    apply Hdef; try assumption. apply Forall_forall. intros c Hin. split; [|apply (H c Hin)]; now apply Hcs.
  - apply andb_true_iff in He as [[Hm Ht]%andb_true_iff Hcs]. rewrite forallb_forall in Hcs.
    apply Hother; try assumption. apply Forall_forall. intros c Hin. split; [|apply (H c Hin)]; now apply Hcs.
Qed.

Lemma causes_block_clean (Q : err -> Prop) hind nind cs :
  Forall Q cs -> (forall c, Q c -> forall ind, clean ind = true -> clean (node_body ind c) = true) ->
  clean hind = true -> clean nind = true -> clean (causes_block hind nind cs) = true.
Proof.
  intros H HQ Hh Hn. unfold causes_block. cl. generalize 1%nat.
  induction H as [|c r Hc _ IH]; intros i; [reflexivity|]. cbn [format_nodes]. cl.
Qed.

Lemma node_body_clean : forall e, eclean e = true -> forall indent, clean indent = true -> clean (node_body indent e) = true.
Proof.
  refine (eclean_ind' _ _ _); [intros m k fs last cs Hm Hk Hw Hcs|intros m t cs Hm Ht Hcs]; intros indent Hi;
    rewrite node_body_eq; cbv zeta; assert (Hind : clean (indent ++ "    ") = true) by cl;
    pose proof (causes_block_clean _ _ _ _ Hcs (fun _ H => proj2 H) Hind Hind) as Hb; cl.
  now apply (details_clean _ _ _ _ last).
Qed.

Lemma err_plusv_clean : forall e, eclean e = true -> clean (err_plusv e) = true.
Proof.
  refine (eclean_ind' _ _ _); [intros m k fs last cs Hm Hk Hw Hcs|now intros m t cs Hm _ _].
  unfold err_plusv. fold (causes_block "" "  " cs).
  pose proof (causes_block_clean _ "" "  " _ Hcs (fun c H => node_body_clean c (proj1 H)) eq_refl eq_refl) as Hb. cl.
  now apply (details_clean _ _ _ _ last).
Qed.

Lemma causes_json_clean (Q : err -> Prop) cs :
  Forall Q cs -> (forall c, Q c -> jclean (err_json c) = true) ->
  forallb (fun kv => clean (fst kv) && jclean (snd kv)) (causes_json cs) = true.
Proof.
  intros H HQ. rewrite Forall_forall in H. unfold causes_json. destruct cs; [reflexivity|].
  apply forallb_one, forallb_forall. intros ? (c & <- & Hin)%in_map_iff. now apply HQ, H.
Qed.

Lemma err_json_clean : forall e, eclean e = true -> jclean (err_json e) = true.
Proof.
  refine (eclean_ind' _ _ _); [intros m k fs last cs Hm Hk Hw Hcs|intros m t cs Hm Ht Hcs]; rewrite err_json_eq;
    cbn [jclean]; rewrite !forallb_app, (causes_json_clean _ _ Hcs (fun _ H => proj2 H)).
  - destruct (wf_fields_obj _ _ Hw) as [A B]. pose proof (to_json_clean _ A B) as J. cbn [forallb fst snd jclean].
    rewrite Hm. destruct (str_eqb k ""); destruct fs; cbn [forallb fst snd jclean]; now rewrite ?Hk, ?J.
  - cbn [forallb fst snd jclean]. now rewrite Hm, Ht.
Qed.

Lemma def_attrs_clean m k fs last :
  clean m = true -> clean k = true -> wf_fields fs last = true -> lvclean (LGroup (def_attrs m k fs)) = true.
Proof.
  intros Hm Hk Hw. pose proof (fields_log_clean _ _ Hw) as Hl. unfold def_attrs. cbn [lvclean]. rewrite !forallb_app.
  cbn [forallb fst snd lvclean]. rewrite Hm. destruct (str_eqb k ""); destruct fs; cbn [forallb fst snd lvclean]; now rewrite ?Hk, ?Hl.
Qed.

Lemma err_log_clean : forall e, eclean e = true -> lvclean (err_log e) = true.
Proof.
  refine (eclean_ind' _ _ _); [intros m k fs last cs Hm Hk Hw _|intros m t cs Hm _ _].
  - now apply (def_attrs_clean _ _ _ last).
  - cbn. now rewrite Hm.
Qed.

Lemma cause_vals_clean (Q : err -> Prop) cs :
  Forall Q cs -> (forall c, Q c -> pclean (node_any c) = true /\ wrapped true (node_any c) = true) ->
  pclean (cause_vals cs) = true /\ wrapped true (cause_vals cs) = true.
Proof.
  intros H HQ. rewrite Forall_forall in H.
  split; apply forallb_forall; intros ? (c & <- & Hin)%in_map_iff; now apply HQ, H.
Qed.

Lemma node_any_clean : forall e, eclean e = true -> pclean (node_any e) = true /\ wrapped true (node_any e) = true.
Proof.
  refine (eclean_ind' _ _ _); [intros m k fs last cs Hm Hk Hw Hcs|intros m t cs Hm Ht Hcs]; rewrite node_any_eq;
    destruct (cause_vals_clean _ _ Hcs (fun _ H => proj2 H)) as [C1 C2]; cbn [pclean wrapped]; rewrite !forallb_app;
    unfold causes_any.
  - destruct (wf_fields_obj _ _ Hw) as [A B].
    split; destruct cs; destruct fs; destruct (str_eqb k ""); cbn [forallb fst snd pclean wrapped andb clean];
      now rewrite ?C1, ?C2, ?A, ?B, ?Hk, ?Hm.
  - split; destruct cs; cbn [forallb fst snd pclean wrapped andb]; now rewrite ?C1, ?C2, ?Hm.
Qed.

Lemma cause_attrs_clean cs : Forall (fun c => eclean c = true) cs -> lvclean (LGroup (cause_attrs cs)) = true.
Proof.
  intros H. destruct (cause_vals_clean _ _ H node_any_clean) as [C1 C2].
  unfold cause_attrs. destruct cs; [reflexivity|]. cbn [lvclean forallb fst snd]. now rewrite C1, C2.
Qed.

Lemma node_log_clean : forall e, eclean e = true -> lvclean (node_log e) = true.
Proof.
  refine (eclean_ind' _ _ _); [intros m k fs last cs Hm Hk Hw Hcs|intros m t cs Hm Ht Hcs];
    rewrite node_log_eq; cbn [lvclean]; rewrite forallb_app; apply andb_true_intro;
    (split; [|apply cause_attrs_clean, Forall_impl with (2 := Hcs); now intros c [Hc _]]).
  - now apply (def_attrs_clean _ _ _ last).
  - cbn. now rewrite Hm.
Qed.

Lemma wf_inside c : wf c = true -> inside c = true -> wf_fields (c_fields c) (c_last c) = true.
Proof.
  unfold wf, inside, wf_fields. intros [Hp Hw]%andb_true_iff [Hh%negb_true_iff _]%andb_true_iff.
  rewrite Hh in Hw. cbn [orb] in Hw. now rewrite Hp, Hw.
Qed.

Lemma the_val_wf c : wf_fields (c_fields c) (c_last c) = true ->
  pclean (the_val c) = true /\ wrapped true (the_val c) = true.
Proof.
  intros Hw. unfold the_val. destruct (nth_error (c_fields c) (c_sec c)) as [kv|] eqn:E; [|now split].
  destruct (wf_fields_all _ _ Hw kv (nth_error_In _ _ E)) as (_ & A & B). now split.
Qed.

Lemma carrier_clean c : wf_fields (c_fields c) (c_last c) = true -> eclean (carrier c) = true.
Proof. intros Hw. unfold carrier. simpl. now rewrite Hw. Qed.

Lemma top_err_clean c : wf_fields (c_fields c) (c_last c) = true -> eclean (top_err c) = true.
Proof.
  intros Hw. pose proof (carrier_clean c Hw) as Hc. unfold top_err.
  destruct (c_pos c) as [|[|n]]; [exact Hc| |]; simpl; simpl in Hc; now rewrite Hc.
Qed.

Lemma slots_clean conv fs last : wf_fields fs last = true ->
  clean (String.concat "" (map slot_text (restore_fields conv fs last))) = true.
Proof.
  intros Hw. destruct (wf_fields_obj _ _ Hw) as [A B]. pose proof (to_json_clean _ A B) as J.
  unfold restore_fields. unfold fields_obj in *. rewrite json_fields_eq in *. cbn [obj_entries jclean] in *.
  rewrite forallb_forall in J. rewrite map_map. apply clean_join_map; [reflexivity|]. intros [n j] Hin.
  pose proof (J _ Hin) as [Hn Hj]%andb_true_iff. unfold slot_text, restore_field. cbn [fst snd].
  destruct j; try destruct (str_eqb s placeholder); try destruct (conv n _); cl.
Qed.

Definition oclean (o : option string) : Prop := match o with Some s => clean s = true | None => True end.

Lemma oclean_if (b : bool) s : clean s = true -> oclean (if b then Some s else None).
Proof. now destruct b. Qed.

Lemma model_clean c s : wf c = true -> inside c = true -> model c = Some s -> clean s = true.
Proof.
  intros Hw0 Hin M. enough (H : oclean (model c)) by now rewrite M in H. clear s M.
  pose proof (wf_inside c Hw0 Hin) as Hw. destruct (the_val_wf c Hw) as [Vp Vw].
  pose proof (top_err_clean c Hw) as Et. pose proof (carrier_clean c Hw) as Ec.
  pose proof (fields_log_clean _ _ Hw) as Fl. destruct (wf_fields_obj _ _ Hw) as [Fp Fw].
  apply andb_true_iff in Hin as [_ Hout%negb_true_iff].
  unfold model. destruct (c_sink c) as [[] sp|[]| | | | |[]|[]| | | | |]; try exact I; try apply oclean_if; cbn [oclean];
    auto using err_plusv_clean, err_json_clean, json_value_clean, log_line_text_clean, log_line_json_clean,
      err_log_clean, node_log_clean, log_value_clean, slots_clean with cln.
  - (* fmt of the value: [inside] is the side condition of fmt *)
    apply fmt_clean; [exact Vp|exact Vw|]. right. cbn [sink_outside] in Hout. change (p_verb (init sp)) with (f_verb sp).
    destruct (ptr_valid (f_verb sp)); [now left|right]. now apply negb_false_iff in Hout.
  - unfold marshal_text. destruct (the_val c) as [| | | |p| | | |[]| |]; try exact I; reflexivity.
  - unfold marshal_binary, marshal_text. destruct (the_val c) as [| | | |p| | | |[]| |]; try exact I; reflexivity.
Qed.

Lemma corr_implies_ok_secret c :
  inside c = true -> model c <> None -> corr c = true -> ok_secret c = true.
Proof.
  intros Hin Hm Hc. unfold corr in Hc. apply andb_true_iff in Hc as [Hw Hc].
  destruct (model c) as [s|] eqn:M; [|now elim Hm].
  apply andb_true_iff in Hc as [E1 E2]. apply str_eqb_eq in E1, E2.
  pose proof (clean_no_mark _ (model_clean c s Hw Hin M)) as Hn.
  unfold ok_secret. now rewrite E1, E2, Hn, str_eqb_refl.
Qed.
