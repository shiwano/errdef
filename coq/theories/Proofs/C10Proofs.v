(* C10: the model's Unmarshal is total. [unmarshal_total] and [cause_good] weaken UnmarshalFacts.both_inv (one failure,
   of a known reason) to the three classes; [corr_inv] reads off what an observation that agrees with the model
   says, and [corr_implies_ok] evaluates Check.C10.ok on it. *)
From Errdef Require Import Base.Str Base.ListFacts Model.Unmarshal Check.UM Check.C10
  Model.UnmarshalGen.
From Errdef Require Import Proofs.UnmarshalFacts.

Definition class3 (s : string) : Prop := s = cls_kind \/ s = cls_field \/ s = cls_internal.

Definition ures_good {A} (r : ures A) : Prop :=
  match r with
  | UPanic _ => False
  | UFail fs => fs <> [] /\ Forall (fun f => class3 (fl_class f)) fs
  | UOk _ => True
  end.

Lemma one_good {A} (P : failure -> Prop) (r : ures A) :
  (forall f, P f -> class3 (fl_class f)) -> fails_sat (one_of P) r -> ures_good r.
Proof.
  intros H. destruct r as [a|fs|w]; cbn; auto. intros [f [-> Pf]].
  split; [discriminate|]. constructor; [auto|constructor].
Qed.

Lemma node_fails_class3 c k fs f : node_fails c k fs f -> class3 (fl_class f).
Proof. unfold class3. destruct 1; cbn; auto. Qed.

Lemma internal_class3 f : f = internal_failure -> class3 (fl_class f).
Proof. intros ->. right. right. reflexivity. Qed.

Theorem cause_good c d : ures_good (unmarshal_cause c d).
Proof.
  apply (one_good _ _ internal_class3). generalize (cause_inv c d). apply fails_sat_impl.
  intros fs ->. now exists internal_failure.
Qed.

Theorem unmarshal_total c od : ures_good (unmarshal_top c od).
Proof.
  apply (one_good _ _) with (2 := top_inv c od).
  intros f. destruct od; [apply node_fails_class3|apply internal_class3].
Qed.

(* the statement groups of converter.go that Model/Convert.v transcribes are those srcgen found in this run *)
Lemma unmarshal_source_shape : unmarshal_source_ok = true.
Proof. reflexivity. Qed.

Lemma class3_facts s : class3 s ->
  existsb (str_eqb s) classes = true /\ count_true (map (str_eqb s) classes) = 1 /\ str_eqb s cls_decode = false
  /\ str_eqb s "ok" = false.
Proof. intros [ -> | [ -> | -> ] ]; vm_compute; repeat split; reflexivity. Qed.

Lemma corr_inv c : UM.corr c = true -> let o := c_obs c in
  uo_unchanged o = true /\ uo_stable_m o = true /\ uo_is o = map (str_eqb (uo_class o)) classes /\
  match model_res c with
  | UOk e => uo_class o = "ok" /\ exists oe, uo_res o = Some oe /\ orerr_eqb oe (orerr_of e) = true
  | UFail fs => uo_res o = None /\
                exists f, In f fs /\ uo_class o = fl_class f /\ uo_kind o = fl_kind f /\ uo_field o = fl_field f
  | UPanic _ => uo_class o = "panic"
  end.
Proof.
  unfold UM.corr. intros H. cbv zeta.
  apply andb_true_iff in H as [H Hm]. apply andb_true_iff in H as [H Hi]. apply andb_true_iff in H as [Hu Hs].
  apply (list_eqb_eq Bool.eqb Bool.eqb_true_iff) in Hi. repeat split; try assumption.
  destruct (model_res c) as [e|fs|w]; [| |now apply str_eqb_eq].
  - apply andb_true_iff in Hm as [Hc Hr]. apply str_eqb_eq in Hc. split; [exact Hc|].
    destruct (uo_res (c_obs c)) as [oe|]; [now exists oe|discriminate].
  - apply andb_true_iff in Hm as [Hm Hr]. split; [destruct (uo_res (c_obs c)); [discriminate|reflexivity]|].
    apply existsb_exists in Hm as [f [Hin Hf]]. unfold failure_matches in Hf.
    apply andb_true_iff in Hf as [Hf H3]. apply andb_true_iff in Hf as [H1 H2].
    exists f. rewrite <- !str_eqb_eq. auto.
Qed.

Theorem corr_implies_ok c : UM.corr c = true -> ok c = true.
Proof.
  intros H. destruct (corr_inv c H) as [Hu [_ [Hi Hm]]]. unfold ok. rewrite Hu, Hi. cbn [andb].
  unfold model_res in Hm. destruct (c_decerr c).
  - (* the decoder failed *)
    destruct Hm as [-> [f [[<-|[]] [-> _]]]]. reflexivity.
  - pose proof (unmarshal_total (c_cfg c) (c_in c)) as G.
    destruct (unmarshal_top (c_cfg c) (c_in c)) as [e|fs|w]; cbn in G; [| |contradiction].
    + destruct Hm as [-> [oe [-> _]]]. reflexivity.
    + destruct Hm as [-> [f [Hin [-> _]]]]. destruct G as [_ G]. rewrite Forall_forall in G.
      destruct (class3_facts _ (G f Hin)) as [A [B [C D]]]. rewrite D, A, B, C, (proj2 (list_eqb_eq Bool.eqb Bool.eqb_true_iff _ _) eq_refl). reflexivity.
Qed.
