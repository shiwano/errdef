(* C09, the JSON step. First the facts about Model/Decode.v that C09Structure builds on: decode as one
   equation (decode_eq), the members decode reads (members_are) and what they are for the document of
   an errdef and of a foreign node. Then the witnesses, on one-node documents, of what Unmarshal does
   not restore (K2-K4). *)
From Errdef Require Import Base.Str Base.Outcome Model.Core Model.Tree0 Model.Json
  Model.Convert Model.Unmarshal Model.Decode.

Lemma frame_roundtrip f : decode_frame (frame_json f) = f.
Proof. destruct f. reflexivity. Qed.

Lemma frames_roundtrip fs : map decode_frame (map frame_json fs) = fs.
Proof. induction fs as [|f r IH]; cbn [map]; [reflexivity|]. now rewrite frame_roundtrip, IH. Qed.

Fixpoint decode_list (t : vtab) (l : list json) (u : list string) : list (option dd) * list string :=
  match l with
  | [] => ([], u)
  | x :: r => let '(d, u1) := decode t x u in let '(ds, u2) := decode_list t r u1 in (Some d :: ds, u2)
  end.

Definition causes_of_doc (j : json) : list json :=
  match jget "causes" j with Some (JArr l) => l | _ => [] end.
Definition doc_stack (j : json) : list frame :=
  match jget "stack" j with Some (JArr l) => map decode_frame l | _ => [] end.

Lemma decode_eq t j u :
  decode t j u =
  let msg := jstr (jget "message" j) in
  let r := decode_list t (causes_of_doc j) (if str_eqb msg "" then tl u else u) in
  (DD msg (jstr (jget "kind" j)) (jstr (jget "type" j)) (decode_fields t (jget "fields" j)) (doc_stack j) (fst r)
      (if str_eqb msg "" then hd "" u else ""), snd r).
Proof.
  destruct j as [s|s|z|l|ms]; try reflexivity. cbn [decode].
  set (fc := fix find_causes (ms0 : list (string * json)) (u0 : list string) {struct ms0} : list (option dd) * list string := _).
  assert (E : forall ms u, fc ms u = decode_list t (causes_of_doc (JObj ms)) u).
  { clear. induction ms as [|[k v] r IH]; intros u; [reflexivity|]. unfold causes_of_doc, jget in *. cbn [fc find fst].
    destruct (str_eqb k "causes"); [|apply IH]. destruct v; try reflexivity. cbn [option_map snd].
    revert u. induction l as [|x l IHl]; intros u; cbn; [reflexivity|]. destruct (decode t x u) as [d u1]. now rewrite IHl. }
  cbv zeta. destruct (str_eqb (jstr (jget "message" (JObj ms))) ""); rewrite E; destruct (decode_list _ _ _); reflexivity.
Qed.

Definition members_are (doc : json) (m k ty : string) (st : list frame) (cs : list json) (fj : option json) : Prop :=
  jstr (jget "message" doc) = m /\ jstr (jget "kind" doc) = k /\ jstr (jget "type" doc) = ty /\
  doc_stack doc = st /\ causes_of_doc doc = cs /\ jget "fields" doc = fj.

Lemma errdef_doc_members m kind (fj : option json) (st : list frame) (cs : list json) :
  members_are (JObj ([("message", JStr m)]
                     ++ (if str_eqb kind "" then [] else [("kind", JStr kind)])
                     ++ (match fj with Some j => [("fields", j)] | None => [] end)
                     ++ (match st with [] => [] | f :: r => [("stack", JArr (map frame_json (f :: r)))] end)
                     ++ (match cs with [] => [] | _ => [("causes", JArr cs)] end)))
              m kind "" st cs fj.
Proof.
  destruct (str_eqb kind "") eqn:Q; [apply str_eqb_eq in Q; subst kind|];
    destruct fj, st as [|f r], cs; repeat split; try reflexivity; exact (frames_roundtrip (f :: r)).
Qed.

Lemma foreign_doc_members m ty (cs : list json) :
  members_are (JObj ([("message", JStr m); ("type", JStr ty)] ++ (match cs with [] => [] | _ => [("causes", JArr cs)] end)))
              m "" ty [] cs None.
Proof. destruct cs; repeat split; reflexivity. Qed.

Lemma decode_members t doc u m k ty st cs fj : members_are doc m k ty st cs fj ->
  let d := fst (decode t doc u) in dd_msg d = m /\ dd_kind d = k /\ dd_ty d = ty /\ dd_stack d = st.
Proof. intros [<- [<- [<- [<- _]]]]. rewrite decode_eq. repeat split. Qed.

Theorem decode_marshal_root t unks e kids doc :
  is_errdef_error e = true -> (match e_def e with Some d => d_json d | None => None end) = None ->
  marshal_tree (T e kids) = Ok doc ->
  let d := fst (decode t doc unks) in
  dd_msg d = err_msg e /\ dd_kind d = e_kind e /\ dd_ty d = "" /\ dd_stack d = e_stack e.
Proof.
  intros He Hj. cbn [marshal_tree]. rewrite He, Hj.
  destruct (match e_fields_all e with [] => Ok None | _ => _ end) as [fj|c|w]; try discriminate;
    destruct (seq_out (map marshal_tree kids)) as [cs|c|w]; try discriminate.
  intros E. injection E as <-.
  exact (decode_members t _ unks _ _ _ _ _ _ (errdef_doc_members (err_msg e) (e_kind e) fj (e_stack e) cs)).
Qed.

Definition d_reg : udef := {| ud_def := define 1000 0 "k1" [ONoTrace]; ud_keys := [] |}.
Definition d_dflt : udef := {| ud_def := define 1001 1 "dflt" [ONoTrace]; ud_keys := [] |}.

(* K3: DefaultResolver + lenient: a kind-less foreign cause is restored as an error of the default definition *)
Theorem default_resolver_cause_refuted :
  let cfg := {| u_defs := [d_reg]; u_default := Some d_dflt; u_strict := false; u_custom := []; u_sentinels := [("*errors.errorString", "EOF", 0%N)] |} in
  let doc := DD "m" "k1" "" [] [] [Some (DD "EOF" "" "*errors.errorString" [] [] [] "")] "" in
  exists e, unmarshal cfg doc = UOk (RErr d_reg "m" [] [] [] [RCErr e]) /\ e = RErr d_dflt "EOF" [] [] [] [].
Proof. cbv zeta. eexists. split; vm_compute; reflexivity. Qed.

(* without a default the same document restores the registered sentinel *)
Theorem sentinel_restored_without_default :
  let cfg := {| u_defs := [d_reg]; u_default := None; u_strict := false; u_custom := []; u_sentinels := [("*errors.errorString", "EOF", 0%N)] |} in
  unmarshal cfg (DD "m" "k1" "" [] [] [Some (DD "EOF" "" "*errors.errorString" [] [] [] "")] "")
  = UOk (RErr d_reg "m" [] [] [] [RCSentinel 0]).
Proof. vm_compute. reflexivity. Qed.

(* K4: a foreign cause with an empty message gets the "<unknown: ...>" rendering, not "" *)
Theorem empty_message_cause_refuted :
  let cfg := {| u_defs := [d_reg]; u_default := None; u_strict := false; u_custom := []; u_sentinels := [] |} in
  unmarshal cfg (DD "m" "k1" "" [] [] [Some (DD "" "" "*main.leafErr" [] [] [] "<unknown: &{...}>")] "")
  = UOk (RErr d_reg "m" [] [] [] [RCUnknown "<unknown: &{...}>" "*main.leafErr" []]).
Proof. vm_compute. reflexivity. Qed.

(* K2: the JSON form "WARN" of a slog.Level field does not bind to the int-kinded key *)
Theorem textmarshaler_field_refuted :
  let lvl := {| uk_key := {| k_id := 501; k_name := "log_level"; k_ty := 130 |}; uk_ty := FScalar {| s_id := 130; s_kind := KInt |} |} in
  let cfg := {| u_defs := [d_reg]; u_default := None; u_strict := false; u_custom := [lvl]; u_sentinels := [] |} in
  let warn := DS {| s_id := 1; s_kind := KString |} (SStr "WARN") in
  unmarshal cfg (DD "m" "k1" "" [("log_level", warn)] [] [] "") = UOk (RErr d_reg "m" [] [("log_level", warn)] [] []).
Proof. vm_compute. reflexivity. Qed.
