(* Facts about sort_fields (Model/Unmarshal.v): the name order in which unmarshal visits the decoded
   fields as of the fix for F12. *)
From Coq Require Import Sorting.Permutation Sorting.Sorted.
From Errdef Require Import Base.Str Base.StrOrd Base.SortFacts Model.Convert Model.Unmarshal.

Definition fld := (string * dval)%type.
Definition name_le (a b : fld) : Prop := String.leb (fst a) (fst b) = true.

Lemma sort_fields_perm l : Permutation (sort_fields l) l.
Proof. exact (isort_perm fst String.leb ins_field (fun _ => eq_refl) (fun _ _ _ => eq_refl) l). Qed.

Lemma sort_fields_in l x : In x (sort_fields l) <-> In x l.
Proof. exact (isort_in fst String.leb ins_field (fun _ => eq_refl) (fun _ _ _ => eq_refl) l x). Qed.

Lemma sort_fields_names_perm l : Permutation (map fst (sort_fields l)) (map fst l).
Proof. apply Permutation_map, sort_fields_perm. Qed.

Lemma sort_fields_sorted l : StronglySorted name_le (sort_fields l).
Proof.
  exact (isort_sorted fst String.leb ins_field (fun _ => eq_refl) (fun _ _ _ => eq_refl) leb_false_flip leb_trans l).
Qed.

(* so Go's map iteration order over decoded.Fields does not matter *)
Theorem sort_fields_perm_invariant l l' :
  Permutation l l' -> NoDup (map fst l) -> sort_fields l = sort_fields l'.
Proof.
  exact (isort_perm_invariant fst String.leb ins_field (fun _ => eq_refl) (fun _ _ _ => eq_refl)
           leb_false_flip leb_trans String.leb_antisym l l').
Qed.

Lemma sort_fields_of_sorted l : StronglySorted name_le l -> sort_fields l = l.
Proof. exact (isort_of_sorted fst String.leb ins_field (fun _ => eq_refl) (fun _ _ _ => eq_refl) l). Qed.

Lemma sort_fields_idem l : sort_fields (sort_fields l) = sort_fields l.
Proof. apply sort_fields_of_sorted, sort_fields_sorted. Qed.
