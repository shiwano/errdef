(* C04, slices: the statements of Properties/C04.v (where they are explained) about Model/SliceFlow.v and
   Gen/SliceOps.v, kept in a file of their own because SliceFlow's run/step/state clash with Model/Prog.v's. *)
From Coq Require Import List String.
Import ListNotations.
Open Scope string_scope.
From Errdef Require Import Model.SliceFlow Proofs.SliceFlowProofs Gen.Effects.
From Errdef Require Gen.SliceOps.

Definition rejected_functions : list string :=
  map fst (filter (fun f => negb (accepts (snd f))) Gen.SliceOps.functions).

Lemma caller_slices_never_written :
  Gen.SliceOps.sliceflow_matched = true /\ rejected_functions = [] /\
  forall name ops, In (name, ops) Gen.SliceOps.functions ->
  forall (h0 : heap) (params retained : string -> slice) (sched : list choice),
  let st := run params retained ops sched (init_state h0) in
  firstn (List.length h0) (st_h st) = h0 /\
  forall s, In s (st_stored st) -> fresh_or_empty (List.length h0) s.
Proof.
  assert (R : rejected_functions = []) by (vm_compute; reflexivity).
  split; [reflexivity|]. split; [exact R|].
  intros name ops Hin. apply accepts_sound. destruct (accepts ops) eqn:A; [reflexivity|exfalso].
  (* acceptance of each function is read off R.  in_map is applied to the goal, not map_eq_nil to R: checking R
     against [map fst _ = []] makes the kernel unfold [map] before [rejected_functions] and run the analysis
     again, slowly *)
  apply (in_nil (a := name)). rewrite <- R. unfold rejected_functions. apply (in_map fst _ (name, ops)).
  apply (proj2 (filter_In _ _ _)). split; [exact Hin|]. cbn [snd]. now rewrite A.
Qed.

Lemma slice_assumptions_audited :
  forallb (fun c => existsb (String.eqb c)
       ["bytes.Equal"; "errors.Join"; "fmt.Sprintf"; "fmt.Fprintf"; "fmt.Errorf"; "json.Marshal"; "json.Unmarshal"; "len"; "cap";
        "runtime.Callers"; "runtime.CallersFrames"; "slog.Any"; "slog.AnyValue"; "slog.GroupValue"; "strings.Join"; "slices.Contains"]) Gen.SliceOps.readonly_callees = true /\
  Gen.SliceOps.assumed_fresh_objects =
    ["unmarshaler.WithCustomFields: u"; "unmarshaler.WithSentinelErrors: u"; "unmarshaler.WithStrictMode: u"] /\
  In ("unmarshaler", "New", "dynamic Option", "fresh u.unmarshaler") mutator_calls /\
  Gen.SliceOps.transferred_slices =
    ["unmarshaler.(*Unmarshaler).Unmarshal: decoded.Stack (stored in unmarshaledError.stack)"].
Proof.
  split; [vm_compute; reflexivity|split; [reflexivity|split; [|reflexivity]]].
  (* the row of the audited table (C04Proofs.writes_audited), named by its position: searching the list
     compares the strings of every earlier row *)
  apply (nth_error_In _ 11). reflexivity.
Qed.

(* non-vacuity: the analysis rejects the two historical defects (F1: Wrapf appended to the caller's
   argument slice; F2: resolver.New compacted the caller's slice in place and kept it), and in the
   memory model the rejected operation really does write into the caller's array *)
Lemma slice_example :
  accepts [PAppend "args2" (XParam "args")] = false /\
  accepts [PWrite (XParam "defs"); PStore "StrictResolver.defs" (XParam "defs")] = false /\
  accepts [PAssign "d#1" XFresh; PWrite (XVar "d#1"); PStore "StrictResolver.defs" (XVar "d#1")] = true /\
  (let h0 := [[1; 2; 0; 0]] in
   let caller := {| sl_arr := 0; sl_off := 0; sl_len := 2; sl_cap := 4 |} in
   let st := run (fun _ => caller) (fun _ => nil_slice) [PAppend "args2" (XParam "args")]
                 [{| c_op := 0; c_xs := [9]; c_extra := 0; c_a := 0; c_b := 0; c_c := 0; c_rel := 0 |}] (init_state h0) in
   st_h st = [[1; 2; 9; 0]]).
Proof. vm_compute. repeat split; reflexivity. Qed.

