(* C03.  get_set / get_apply_opts: a field read sees the last write through the same constructor.  [seqs_track]
   relates the factories of a state to the option sequences computed from the program text (Check.C03.seqs_of);
   with [addr_unique] (a factory is found by its address) it is kept by every statement, so an extractor -
   which stops at the first fields carrier - reads the text's last write (extract_last_writer). *)
From Errdef Require Import Base.Str Base.ListFacts Model.Core Model.GoErrors Model.Prog Check.C03 Proofs.ProgFacts Proofs.C01Proofs.
From Errdef Require Check.C02.

Lemma key_eqb_trans_false k1 k2 k : key_eqb k1 k = true -> key_eqb k2 k1 = false -> key_eqb k2 k = false.
Proof. unfold key_eqb. intros A B. apply N.eqb_eq in A. apply N.eqb_neq in B. apply N.eqb_neq. congruence. Qed.

Lemma find_remove k' k l :
  find (fun e : key * (fval * nat) => key_eqb (fst e) k) (f_remove k' l)
  = if key_eqb k' k then None else find (fun e => key_eqb (fst e) k) l.
Proof.
  unfold f_remove, key_eqb. induction l as [|x r IH]; cbn; [now destruct (N.eqb _ _)|].
  destruct (N.eqb_spec (k_id (fst x)) (k_id k')) as [E|E]; cbn; rewrite IH; [rewrite E; now destruct (N.eqb _ _)|].
  destruct (N.eqb_spec (k_id (fst x)) (k_id k)) as [F|F], (N.eqb_spec (k_id k') (k_id k)); congruence.
Qed.

(* [key_eqb] compares ids: a key is its constructor, whatever its name *)
Lemma get_set k' v f k : f_get (f_set k' v f) k = if key_eqb k' k then Some v else f_get f k.
Proof.
  unfold f_get, f_set. cbn [f_data]. rewrite find_app, find_remove. cbn.
  destruct (key_eqb k' k); [reflexivity|]. now destruct (find _ _).
Qed.

Lemma get_apply_opt d o k :
  f_get (d_fields (apply_opt d o)) k =
  match o with OField k' v => if key_eqb k' k then Some v else f_get (d_fields d) k | _ => f_get (d_fields d) k end.
Proof. destruct o; cbn; try reflexivity. apply get_set. Qed.

Lemma last_field_app k a b :
  last_field k (a ++ b) = match last_field k b with Some v => Some v | None => last_field k a end.
Proof.
  induction a as [|o r IH]; cbn; [now destruct (last_field k b)|].
  destruct o; try exact IH. rewrite IH. now destruct (last_field k b).
Qed.

Lemma get_apply_opts os : forall d k,
  f_get (d_fields (apply_opts d os)) k =
  match last_field k os with Some v => Some v | None => f_get (d_fields d) k end.
Proof.
  unfold apply_opts. induction os as [|o r IH]; intros d k; cbn; [reflexivity|].
  rewrite IH, get_apply_opt. destruct o; try reflexivity.
  destruct (last_field k r); [reflexivity|]. now destruct (key_eqb k0 k).
Qed.

Lemma get_empty k : f_get fields_empty k = None.
Proof. reflexivity. Qed.

Lemma get_define a org kind os k : f_get (d_fields (define a org kind os)) k = last_field k os.
Proof. unfold define. rewrite get_apply_opts. now destruct (last_field k os). Qed.

Lemma get_with_options a d os k :
  f_get (d_fields (with_options a d os)) k =
  match last_field k os with Some v => Some v | None => f_get (d_fields d) k end.
Proof. destruct os; [reflexivity|]. unfold with_options. now rewrite get_apply_opts. Qed.

Definition seqs_track (s : st) (q : seqs) : Prop :=
  List.length (q_defs q) = List.length (s_defs s) /\
  q_ctxs q = s_ctxs s /\
  (forall i k, i < List.length (s_defs s) ->
     f_get (d_fields (nth i (s_defs s) dummy_def)) k = last_field k (nth i (q_defs q) [])).

Lemma seqs_track_add_def s q d' os' used b :
  seqs_track s q -> (forall k, f_get (d_fields d') k = last_field k os') ->
  seqs_track (add_def s d' used b) {| q_defs := q_defs q ++ [os']; q_ctxs := q_ctxs q |}.
Proof.
  intros [Hl [Hc Hf]] Hn. split; [|split]; cbn [add_def s_defs s_ctxs q_defs q_ctxs].
  - rewrite !app_length. cbn. lia.
  - exact Hc.
  - intros i k Hi. rewrite app_length in Hi. cbn in Hi.
    destruct (Nat.lt_ge_cases i (List.length (s_defs s))) as [L|L].
    + rewrite !app_nth1 by lia. now apply Hf.
    + assert (i = List.length (s_defs s)) by lia. subst i.
      rewrite app_nth2 by lia. rewrite Nat.sub_diag. cbn.
      rewrite <- Hl at 1. rewrite app_nth2 by lia. rewrite Nat.sub_diag. cbn. apply Hn.
Qed.

Lemma seq_step_err q x : C02.makes_err x = true -> seq_step q x = q.
Proof. now destruct x. Qed.

Lemma seqs_track_step s q x : seqs_track s q -> st_ok s x = true -> seqs_track (step s x) (seq_step q x).
Proof.
  intros HF Hok. pose proof HF as [Hl [Hc Hf]]. unfold st_ok in Hok.
  assert (Hq : forall ctx, q_ctx q ctx = get_ctx s ctx) by (intros ctx; unfold q_ctx; now rewrite Hc).
  destruct (step_cases s x) as [kind os|parent os|d ctx os _|d os _|x oe used Hx _]; cbn [seq_step stmt_ok] in *.
  - apply seqs_track_add_def; [exact HF|]. intros k. apply get_define.
  - split; [|split]; cbn [add_ctx s_defs s_ctxs q_defs q_ctxs]; try assumption. now rewrite Hq, Hc.
  - apply andb_true_iff in Hok as [Hd _]. apply Nat.ltb_lt in Hd.
    apply seqs_track_add_def; [exact HF|]. intros k.
    rewrite get_with_options, (last_field_app k (nth d _ _)), Hq. unfold get_def. now rewrite (Hf d k Hd).
  - apply Nat.ltb_lt in Hok. apply seqs_track_add_def; [exact HF|]. intros k.
    rewrite get_with_options, last_field_app. unfold get_def. now rewrite (Hf d k Hok).
  - rewrite seq_step_err by exact Hx. exact HF.
Qed.

Definition addr_unique (ds : list defn) : Prop :=
  forall d1 d2, In d1 ds -> In d2 ds -> d_addr d1 = d_addr d2 -> d1 = d2.

Lemma addr_unique_add ds d' (bound : N) :
  addr_unique ds -> (forall d, In d ds -> (d_addr d < bound)%N) ->
  (In d' ds \/ d_addr d' = bound) -> addr_unique (ds ++ [d']).
Proof.
  intros U B H d1 d2 H1 H2 E. apply in_app_or in H1, H2.
  destruct H1 as [H1|[<-|[]]]; destruct H2 as [H2|[<-|[]]]; try reflexivity.
  - now apply U.
  - destruct H as [H|H]; [now apply U|]. specialize (B d1 H1). lia.
  - destruct H as [H|H]; [now apply U|]. specialize (B d2 H2). lia.
Qed.

Lemma addr_unique_step s x : Inv s -> addr_unique (s_defs s) -> st_ok s x = true -> addr_unique (s_defs (step s x)).
Proof.
  intros (_ & Hb & _) U Hok.
  assert (B : forall d, In d (s_defs s) -> (d_addr d < s_next s)%N) by (intros d Hd; now destruct (Hb d Hd)).
  destruct (step_cases s x) as [kind os| |d ctx os Hd|d os Hd|]; try exact U; apply (addr_unique_add _ _ (s_next s)); try assumption.
  - right. apply define_ids.
  - destruct (with_options_ids (s_next s) (get_def s d) (get_ctx s ctx ++ os)) as [->|[A _]]; [left; auto|right; exact A].
  - destruct (with_options_ids (s_next s) (get_def s d) os) as [->|[A _]]; [left; auto|right; exact A].
Qed.

Lemma tracked_run p : prog_ok p = true -> seqs_track (run p) (seqs_of p) /\ addr_unique (s_defs (run p)).
Proof.
  apply (prog_ind (fun p => seqs_track (run p) (seqs_of p) /\ addr_unique (s_defs (run p)))).
  - split; [split; [reflexivity|split; [reflexivity|]]|]; [intros i k Hi; cbn in Hi; lia|intros d1 d2 []].
  - intros q x Hq Hx [HF U]. rewrite run_snoc. unfold seqs_of. rewrite fold_left_app.
    split; [now apply seqs_track_step|apply addr_unique_step; auto using inv_run].
Qed.

Lemma index_of_addr_spec ds d : In d ds -> addr_unique ds -> forall i,
  exists j, index_of_addr ds (d_addr d) i = Some (i + j) /\ nth j ds dummy_def = d /\ j < List.length ds.
Proof.
  induction ds as [|x r IH]; intros Hin U i; [contradiction|].
  cbn [index_of_addr]. destruct (N.eqb_spec (d_addr x) (d_addr d)) as [E|E].
  - exists 0. rewrite Nat.add_0_r. repeat split; [|cbn; lia]. apply U; [now left|exact Hin|exact E].
  - destruct Hin as [->|Hin]; [congruence|].
    destruct (IH Hin (fun a b Ha Hb => U a b (or_intror Ha) (or_intror Hb)) (S i)) as (j & A & B & C).
    exists (S j). rewrite A. repeat split; [f_equal; lia|exact B|cbn; lia].
Qed.

Theorem extract_last_writer p k e :
  prog_ok p = true -> defs_within (s_defs (run p)) e ->
  extract k e = spec_extract (run p) (seqs_of p) k e.
Proof.
  intros Hok He. destruct (tracked_run p Hok) as [(Hl & _ & Hf) U].
  unfold extract, spec_extract, as_first.
  destruct (find has_fields (reach e)) as [n|] eqn:F; [|reflexivity].
  apply find_some in F as [Hin Hp].
  assert (G : forall d, node_def n = Some d ->
     f_get (d_fields d) k = match index_of_addr (s_defs (run p)) (d_addr d) 0 with
                            | Some i => last_field k (nth i (q_defs (seqs_of p)) []) | None => None end).
  { intros d Hd. destruct (index_of_addr_spec _ d (He n d Hin Hd) U 0) as (i & -> & B & C).
    cbn [Nat.add]. now rewrite <- (Hf i k C), B. }
  destruct n; try discriminate Hp; cbn [node_fields]; try (apply G; reflexivity).
  reflexivity.
Qed.

Theorem ext_model_is_spec p e kz :
  prog_ok p = true -> defs_within (s_defs (run p)) e ->
  ext_of e kz = spec_ext (run p) (seqs_of p) e kz.
Proof.
  intros Hok He. destruct kz as [[k z] d]. unfold ext_of, spec_ext.
  now rewrite (extract_last_writer p k e Hok He).
Qed.

Theorem no_collision k1 k2 v f : k_id k1 <> k_id k2 -> f_get (f_set k1 v f) k2 = f_get f k2.
Proof. intros H. rewrite get_set. unfold key_eqb. apply N.eqb_neq in H. now rewrite H. Qed.

Theorem first_layer_only keys e n :
  as_first has_fields e = Some n ->
  (forall k, extract k e = f_get (node_fields n) k) /\
  o_kind (model_obs keys e) = Some (node_kind n) /\
  (forall n', as_first has_stack e = Some n' ->
     o_stack (model_obs keys e) = match node_stack_len n' with O => None | l => Some l end).
Proof.
  intros H. unfold extract, model_obs. cbn. rewrite H. repeat split. intros n' H'. now rewrite H'.
Qed.

Lemma list_eqb_forallb2 {A B} (eqb : A -> A -> bool) (g : B -> A) (f : B -> A -> bool) l2 : forall l1,
  (forall a b, In b l2 -> eqb a (g b) = true -> f b a = true) ->
  list_eqb eqb l1 (map g l2) = true -> forallb2 f l2 l1 = true.
Proof.
  induction l2 as [|b r IH]; intros [|a l1] H E; cbn in *; try discriminate; [reflexivity|].
  apply andb_true_iff in E as [E1 E2]. rewrite (H a b (or_introl eq_refl) E1). apply IH; auto.
Qed.

Theorem corr_implies_ok c : corr c = true -> ok c = true.
Proof.
  unfold corr, ok. intros H. apply andb_true_iff in H as [Hp H]. rewrite Hp. cbn [andb].
  pose proof (inv_run _ Hp) as (_ & _ & He).
  revert H. apply list_eqb_forallb2. intros [o|] [e|] Hin H; cbn in *; try discriminate; try reflexivity.
  repeat (apply andb_true_iff in H as [H _]).
  rewrite <- (map_ext (ext_of e)); [exact H|]. intros kz. apply ext_model_is_spec; [exact Hp|now apply He].
Qed.
