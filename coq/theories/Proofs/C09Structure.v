(* C09, structure. A shape (nshape) keeps message, kind, type name, frames, number of fields and children.
   marshal_decode_shape: the decoded document of a tree of the domain mdom has the tree's shape;
   unmarshal_shape: Unmarshal of a decoded node of that shape restores it, given udom and foreign_fails of
   the configuration. Both by induction on the tree; roundtrip_structure composes them. *)
From Errdef Require Import Base.Str Base.ListFacts Base.Outcome Model.Core Model.Tree0 Model.Json
  Model.Convert Model.Unmarshal Model.Decode
  Proofs.UnmarshalFacts Proofs.TreeFacts Proofs.C09Proofs.

Inductive nshape := NS (msg kind ty : string) (frames : list frame) (nfields : nat) (kids : list nshape).

Fixpoint tshape (t : tree) : nshape :=
  match t with
  | T e kids =>
      if is_errdef_error e then NS (err_msg e) (e_kind e) "" (e_stack e) (List.length (e_fields_all e)) (map tshape kids)
      else NS (err_msg e) "" (type_name e) [] 0 (map tshape kids)
  end.

(* a nil cause, like a restored sentinel in cshape below, carries no message: it gets the empty
   shape, which no node of the domain has (mdom: messages are non-empty) *)
Fixpoint ddshape (d : dd) : nshape :=
  match d with
  | DD m k t fs st cs _ =>
      NS m k t st (List.length fs) ((fix go (l : list (option dd)) : list nshape :=
                      match l with [] => [] | Some x :: r => ddshape x :: go r | None :: r => NS "" "" "" [] 0 [] :: go r end) cs)
  end.

Lemma ddshape_unfold m k t fs st cs u :
  ddshape (DD m k t fs st cs u) =
  NS m k t st (List.length fs) (map (fun o => match o with Some x => ddshape x | None => NS "" "" "" [] 0 [] end) cs).
Proof.
  cbn. f_equal. induction cs as [|[x|] r IH]; cbn; [reflexivity| |]; now rewrite IH.
Qed.

(* every message is non-empty; errdef nodes have no custom marshaler and carry no fields: a shape
   only counts fields, the round trip of their values is ValueRoundtrip.scalar_value_roundtrip *)
Fixpoint mdom (t : tree) : Prop :=
  match t with
  | T e kids =>
      err_msg e <> "" /\
      (is_errdef_error e = true ->
         (match e_def e with Some d => d_json d | None => None end) = None /\ e_fields_all e = []) /\
      (fix go (l : list tree) : Prop := match l with [] => True | k :: r => mdom k /\ go r end) kids
  end.

Lemma mdom_kids e kids : mdom (T e kids) -> Forall mdom kids.
Proof. intros [_ [_ H]]. exact (proj1 (fix_and_Forall mdom kids) H). Qed.

Definition decodes_to (doc : json) (s : nshape) : Prop :=
  forall tbl u, ddshape (fst (decode tbl doc u)) = s /\ snd (decode tbl doc u) = u.

Lemma decode_list_shapes tbl docs shapes : Forall2 decodes_to docs shapes ->
  forall u, exists ds, decode_list tbl docs u = (map Some ds, u) /\ map ddshape ds = shapes.
Proof.
  induction 1 as [|doc s docs shapes H _ IH]; intros u; cbn.
  - exists []. split; reflexivity.
  - destruct (H tbl u) as [A B]. destruct (decode tbl doc u) as [d u1] eqn:E. cbn in A, B. subst u1.
    destruct (IH u) as [ds [E2 S]]. rewrite E2. exists (d :: ds). split; [reflexivity|]. cbn. now rewrite A, S.
Qed.

Lemma decode_node doc m k ty st cs shapes :
  members_are doc m k ty st cs None -> m <> "" -> Forall2 decodes_to cs shapes ->
  decodes_to doc (NS m k ty st 0 shapes).
Proof.
  intros [<- [<- [<- [<- [<- F]]]]] Hm Hc tbl u. rewrite decode_eq. cbv zeta. cbn [fst snd].
  destruct (str_eqb _ "") eqn:Q; [now apply str_eqb_eq in Q|].
  destruct (decode_list_shapes tbl _ _ Hc u) as [ds [-> <-]]. cbn [fst snd]. rewrite ddshape_unfold, map_map, F.
  split; reflexivity.
Qed.

Theorem marshal_decode_shape : forall t, mdom t ->
  exists doc, marshal_tree t = Ok doc /\ decodes_to doc (tshape t).
Proof.
  induction t as [e kids IH] using tree_ind'. intros Hd.
  pose proof (mdom_kids e kids Hd) as Hk. destruct Hd as [Hm [He _]].
  assert (Hkids : exists docs, seq_out (map marshal_tree kids) = Ok docs /\ Forall2 decodes_to docs (map tshape kids)).
  { clear Hm He. induction kids as [|k r IHr]; [exists []; split; constructor|].
    inversion IH as [|? ? H1 H2]; inversion Hk as [|? ? H3 H4]; subst.
    destruct (H1 H3) as [doc [A B]], (IHr H2 H4) as [docs [C D]].
    exists (doc :: docs). cbn [map seq_out]. rewrite A, C. split; [reflexivity|now constructor]. }
  destruct Hkids as [docs [Hs Hshape]]. cbn [marshal_tree tshape]. rewrite Hs.
  destruct (is_errdef_error e) eqn:Ee.
  - destruct (He eq_refl) as [Hj Hf]. rewrite Hj, Hf. eexists. split; [reflexivity|].
    exact (decode_node _ _ _ _ _ _ _ (errdef_doc_members (err_msg e) (e_kind e) None (e_stack e) docs) Hm Hshape).
  - eexists. split; [reflexivity|].
    exact (decode_node _ _ _ _ _ _ _ (foreign_doc_members (err_msg e) (type_name e) docs) Hm Hshape).
Qed.

Fixpoint rshape (r : rerr) : nshape :=
  match r with
  | RErr d m ty un st cs =>
      NS m (d_kind (ud_def d)) "" st (List.length ty + List.length un)
         ((fix go (l : list rcause) : list nshape := match l with [] => [] | c :: r => cshape c :: go r end) cs)
  end
with cshape (c : rcause) : nshape :=
  match c with
  | RCErr e => rshape e
  | RCDef d => NS (d_kind (ud_def d)) "" definition_type_name [] 0 []
  | RCSentinel _ => NS "" "" "" [] 0 []
  | RCUnknown m t cs =>
      NS m "" t [] 0 ((fix go (l : list rcause) : list nshape := match l with [] => [] | c :: r => cshape c :: go r end) cs)
  end.

Lemma rshape_unfold d m ty un st cs :
  rshape (RErr d m ty un st cs) = NS m (d_kind (ud_def d)) "" st (List.length ty + List.length un) (map cshape cs).
Proof. reflexivity. Qed.
Lemma cshape_unknown m t cs : cshape (RCUnknown m t cs) = NS m "" t [] 0 (map cshape cs).
Proof. reflexivity. Qed.

(* the configuration side of the domain: kinds of errdef nodes are registered; foreign
   nodes have a type name, are not definitions used as causes, and no sentinel applies *)
Fixpoint udom (c : ucfg) (t : tree) : Prop :=
  match t with
  | T e kids =>
      (if is_errdef_error e then resolve_kind_def (u_defs c) (e_kind e) <> None
       else type_name e <> "" /\ type_name e <> definition_type_name) /\
      (fix go (l : list tree) : Prop := match l with [] => True | k :: r => udom c k /\ go r end) kids
  end.

Lemma udom_kids c e kids : udom c (T e kids) -> Forall (udom c) kids.
Proof. intros [_ H]. exact (proj1 (fix_and_Forall (udom c) kids) H). Qed.

Definition foreign_fails (c : ucfg) : Prop :=
  resolve_kind_u c "" = UFail [{| fl_class := cls_kind; fl_kind := ""; fl_field := "" |}] /\ u_sentinels c = [].

Lemma collect_nil c def k : collect_fields (map (fun nv : string * dval => (fst nv, bind_field c def k (fst nv) (snd nv))) []) = ([], [], [], None).
Proof. reflexivity. Qed.

Lemma cres_shapes c (ds : list (option dd)) (kids : list tree) :
  Forall2 (fun od k => exists d, od = Some d /\ exists rc, unmarshal_cause c d = UOk rc /\ cshape rc = tshape k) ds kids ->
  exists rcs, causes_model c ds = UOk rcs /\ map cshape rcs = map tshape kids.
Proof.
  unfold causes_model. induction 1 as [|od k ds kids [d [-> [rc [E S]]]] _ [rcs [E2 S2]]]; cbn.
  - exists []. split; reflexivity.
  - rewrite E, E2. exists (rc :: rcs). split; [reflexivity|]. cbn. now rewrite S, S2.
Qed.

Theorem unmarshal_shape c : foreign_fails c ->
  forall t, mdom t -> udom c t -> forall d, ddshape d = tshape t ->
  (exists rc, unmarshal_cause c d = UOk rc /\ cshape rc = tshape t) /\
  (is_errdef_error (t_err t) = true -> exists r, unmarshal c d = UOk r /\ rshape r = tshape t).
Proof.
  intros [Hff Hsent]. induction t as [e kids IH] using tree_ind'. intros Hm Hu d Hd.
  pose proof (mdom_kids e kids Hm) as Hmk. pose proof (udom_kids c e kids Hu) as Huk.
  destruct Hm as [Hmsg [Hme _]]. destruct Hu as [Hue _].
  destruct d as [m k ty fs st cs u]. rewrite ddshape_unfold in Hd. cbn [tshape t_err] in *.
  assert (Hc : map (fun o => match o with Some x => ddshape x | None => NS "" "" "" [] 0 [] end) cs = map tshape kids ->
               exists rcs, causes_model c cs = UOk rcs /\ map cshape rcs = map tshape kids).
  { intros Hmap. apply cres_shapes. apply Forall2_map_eq in Hmap.
    apply (Forall2_impl_r _ _ _ _ _ (Forall_and (Forall_and IH Hmk) Huk) Hmap).
    intros [dx|] kid [[Hih Hm1] Hu1] Hs.
    - exists dx. split; [reflexivity|]. exact (proj1 (Hih Hm1 Hu1 dx Hs)).
    - (* a nil cause has the empty shape, a tree node of the domain has a non-empty message *)
      exfalso. destruct kid as [ke kk]. destruct Hm1 as [Hne _]. cbn in Hs.
      destruct (is_errdef_error ke); inversion Hs; congruence. }
  rewrite unmarshal_cause_node, unmarshal_node. unfold node_err.
  destruct (is_errdef_error e) eqn:Ee.
  - (* an errdef node: its kind is registered, it has no fields *)
    injection Hd as E1 E2 E3 E4 E5 E6. destruct (Hme eq_refl) as [_ Hf]. rewrite Hf in E5 |- *.
    apply length_zero_iff_nil in E5. subst fs m k ty st.
    destruct (resolve_kind_def (u_defs c) (e_kind e)) as [ud|] eqn:Er; [|contradiction].
    destruct (resolve_kind_def_some _ _ _ Er) as [_ Kk].
    rewrite (proj2 (resolve_kind_u_ok c _ ud) (or_introl Er)). destruct (Hc E6) as [rcs [-> Sc]].
    split; [|intros _]; eexists; (split; [reflexivity|]); cbn [cshape]; rewrite rshape_unfold, Kk, Sc; reflexivity.
  - (* a foreign node: kind "" is not registered, so it becomes an unknown cause *)
    injection Hd as E1 E2 E3 E4 E5 E6. subst m k ty st. rewrite Hff. split; [|discriminate].
    destruct Hue as [Hty Hnd]. destruct (Hc E6) as [rcs [Ec Sc]]. unfold node_cause. rewrite Ec.
    replace (has_internal _) with false by reflexivity.
    destruct (str_eqb (err_msg e) "") eqn:Q1; [apply str_eqb_eq in Q1; contradiction|].
    destruct (str_eqb (type_name e) "") eqn:Q2; [apply str_eqb_eq in Q2; contradiction|].
    destruct (str_eqb (type_name e) definition_type_name) eqn:Q3; [apply str_eqb_eq in Q3; contradiction|].
    unfold lookup_sentinel. rewrite Hsent.
    destruct rcs; (eexists; split; [reflexivity|]); rewrite cshape_unknown, <- Sc; reflexivity.
Qed.

Lemma t_err_tree_of e : t_err (tree_of e) = e.
Proof. destruct e; reflexivity. Qed.

Theorem roundtrip_structure c tbl unks e :
  foreign_fails c -> is_errdef_error e = true -> mdom (tree_of e) -> udom c (tree_of e) ->
  exists doc r, marshal_error e = Ok doc /\
                unmarshal c (fst (decode tbl doc unks)) = UOk r /\
                rshape r = tshape (tree_of e).
Proof.
  intros Hf He Hm Hu. destruct (marshal_decode_shape (tree_of e) Hm) as [doc [Em Hd]].
  destruct (Hd tbl unks) as [Hs _].
  destruct (unmarshal_shape c Hf (tree_of e) Hm Hu _ Hs) as [_ B].
  rewrite t_err_tree_of in B. destruct (B He) as [r [Er Sr]].
  exists doc, r. repeat split; assumption.
Qed.
