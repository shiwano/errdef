(* The JSON step on typed scalar field values (Model/JsonVal.v) composed with the binding rules
   (Model/Convert.v): what C09 ("same values through the original typed extractors") and C12
   ("n is a fixpoint") need per field.  The only stdlib behaviour assumed is the strconv contract
   on float32 stated as the Section hypothesis [reparse32_ok]; everything else is computed/proved
   with Flocq. *)
From Coq Require Import Reals Lra.
From Flocq Require Import Core IEEE754.BinarySingleNaN.
From Errdef Require Import Base.Str Base.Outcome Model.Convert Model.JsonVal Check.C11 Proofs.FloatFacts Proofs.C11Proofs.
Local Open Scope Z_scope.

Lemma bits_of_f32_of_bits b : 0 <= b < two32 -> is_nan_f (f32_of_bits b) = false -> bits_of_f32 (f32_of_bits b) = b.
Proof. exact (bits_of_bsn_of_bits 23 8 eq_refl eq_refl eq_refl nan32_bits b). Qed.
Lemma bits_of_f64_of_bits b : 0 <= b < two64 -> is_nan_f (f64_of_bits b) = false -> bits_of_f64 (f64_of_bits b) = b.
Proof. exact (bits_of_bsn_of_bits 52 11 eq_refl eq_refl eq_refl nan64_bits b). Qed.

(* [i64_to_f64] is the JSON step: encoding/json parses the decimal text of an int64 / uint64 with
   strconv.ParseFloat, correctly rounded *)
Lemma int_rebinds k z : is_int_kind k = true -> int_min k <= z <= int_max k ->
  generic_format radix2 fexp64 (IZR z) ->
  conv_f64 k (bits_of_f64 (i64_to_f64 z)) = Some (SInt z).
Proof.
  intros Hk Hr Hf.
  destruct (i64_to_f64_correct z) as (Hfin & Hv & _).
  { destruct (int_kind_table k Hk) as (h & Hh & _ & _ & H). change two64 with (2 * two63). lia. }
  apply f64_to_int_complete; try assumption; rewrite f64_of_bits_of_f64; [exact Hfin|].
  rewrite Hv. apply round_generic; auto with typeclass_instances.
Qed.

Lemma format_two63 : generic_format radix2 fexp64 (IZR two63).
Proof. rewrite two63_bpow. apply generic_format_FLT_bpow; [reflexivity|lia]. Qed.

(* [z] is the exact value of the source, or (K6) -2^63 for 2^63 and 2^63 for 2^64 *)
Lemma conv_f64_int_range k bits z : is_int_kind k = true -> conv_f64 k bits = Some (SInt z) ->
  int_min k <= z <= int_max k /\ generic_format radix2 fexp64 (IZR z).
Proof.
  intros Hk (z' & _ & Fv & Hr & [= ->])%conv_f64_int_iff; [|exact Hk].
  destruct (Z_le_gt_dec z' (int_max k)).
  { rewrite amd64_in_range by (auto; lia). split; [lia|]. rewrite <- Fv. apply generic_format_B2R. }
  pose proof format_two63 as F63. unfold f64_to_int_amd64.
  destruct (int_kind_table k Hk) as (h & Hh & Hp & Hs & [(-> & Hmin & Hmax)|(-> & _ & Hmin & Hmax)]);
    (destruct (Z.eqb_spec h two63) as [->|]; [|lia]).
  - replace z' with two63 by lia. rewrite Z.geb_leb, Z.leb_refl. cbn [orb].
    rewrite (wrap_signed_small _ two63) by (auto; lia). split; [lia|]. rewrite opp_IZR. now apply generic_format_opp.
  - replace z' with two64 by (change two64 with (2 * two63); lia). rewrite Z.geb_leb, Z.leb_refl.
    rewrite Hp, Z.mod_small by lia. split; [lia|exact F63].
Qed.

(* the step of C12 on an integer; it covers the two boundary values of K6 *)
Lemma int_binding_idempotent k bits z : is_int_kind k = true ->
  conv_f64 k bits = Some (SInt z) -> conv_f64 k (bits_of_f64 (i64_to_f64 z)) = Some (SInt z).
Proof. intros Hk H. destruct (conv_f64_int_range k bits z Hk H). now apply int_rebinds. Qed.

Lemma f64_to_f32_big (f : b64) : (IZR max_float32_Z < Rabs (B2R f))%R ->
  is_finite (f64_to_f32 f) = true -> (IZR max_float32_Z <= Rabs (B2R (f64_to_f32 f)))%R.
Proof.
  destruct f as [s| s | | s m e He]; intros Hgt Hfin;
    try (exfalso; cbn in Hgt; rewrite Rabs_R0 in Hgt; apply lt_IZR in Hgt; discriminate Hgt).
  unfold f64_to_f32 in *.
  pose proof (binary_normalize_correct 24 128 eq_refl eq_refl mode_NE (if s then Z.neg m else Z.pos m) e s) as H.
  cbv zeta in H. rewrite (F2R_B2R s m e He) in H.
  destruct (Rlt_bool _ _).
  - destruct H as [-> _].
    apply abs_round_ge_generic; auto with typeclass_instances.
    + apply FLT_exp_valid. reflexivity.
    + apply max32_format.
    + apply Rlt_le. exact Hgt.
  - (* overflow gives an infinity *)
    exfalso. destruct (binary_normalize _ _ _ _ _ _ _ _); cbn in H, Hfin; discriminate.
Qed.

Lemma try_convert_f64 t b : N.eqb (s_id t) 13 = false ->
  try_convert (FScalar t) (DS ty_float64 (SF64 b)) =
  match conv_f64 (s_kind t) b with
  | Some v => Ok (Some (BScalar t v))
  | None => Ok None
  end.
Proof.
  intros Hid. rewrite try_convert_scalar, (scalar_conv_f64 _ ty_float64 (SF64 b) b eq_refl eq_refl).
  cbn [ty_float64 s_id]. rewrite N.eqb_sym, Hid. destruct (conv_f64 _ b); reflexivity.
Qed.

Section Reparse.
Variable reparse32 : Z -> Z.
(* strconv contract: the shortest decimal text of a finite float32, parsed as a float64, is a finite
   float64 that rounds back to that float32 *)
Hypothesis reparse32_ok : forall b, is_finite (f32_of_bits b) = true ->
  is_finite (f64_of_bits (reparse32 b)) = true /\ f64_to_f32 (f64_of_bits (reparse32 b)) = f32_of_bits b.

Lemma f32_rebinds b : bits_of_f32 (f32_of_bits b) = b -> is_finite (f32_of_bits b) = true ->
  (Rabs (B2R (f32_of_bits b)) < IZR max_float32_Z)%R ->
  conv_f64 KFloat32 (reparse32 b) = Some (SF32 b).
Proof.
  intros Hb Hfin Hlt. destruct (reparse32_ok b Hfin) as [Gf Gr].
  rewrite conv_f64_f32_spec. cbv zeta. set (g := f64_of_bits (reparse32 b)) in *.
  rewrite Gf, Gr, Hb, Rlt_bool_false, orb_true_r; [reflexivity|].
  destruct (Rle_or_lt (Rabs (B2R g)) (IZR max_float32_Z)) as [H|H]; [exact H|exfalso].
  pose proof (f64_to_f32_big g H) as Hb2. rewrite Gr in Hb2. specialize (Hb2 Hfin). lra.
Qed.

(* the values of a field of type t that the JSON step carries exactly *)
Definition rebindable (t : sty) (v : sval) : Prop :=
  match v with
  | SBool _ => s_kind t = KBool
  | SStr _ => s_kind t = KString
  | SF64 _ => s_kind t = KFloat64
  | SInt z => is_int_kind (s_kind t) = true /\ int_min (s_kind t) <= z <= int_max (s_kind t) /\
              generic_format radix2 fexp64 (IZR z)
  | SF32 b => s_kind t = KFloat32 /\ bits_of_f32 (f32_of_bits b) = b /\
              (Rabs (B2R (f32_of_bits b)) < IZR max_float32_Z)%R
  end.

Lemma wf_not_f64 t : sty_wf t = true -> s_kind t <> KFloat64 -> N.eqb (s_id t) 13 = false.
Proof.
  unfold sty_wf. intros [[H _]%andb_prop _]%andb_prop Hk. destruct (N.eqb (s_id t) 13); [|reflexivity].
  now apply skind_eqb_eq in H.
Qed.

Lemma rebinds t v d : sty_wf t = true -> rebindable t v -> redecode reparse32 v = Some d ->
  exists b, try_convert (FScalar t) d = Ok (Some b) /\ bval_scalar b = Some v.
Proof.
  intros Hwf Hr Hd.
  (* bool, string and float64 come back as themselves; an integer or a float32 as a number *)
  assert (Same : forall vt, ids_ok vt = true -> s_kind t = s_kind vt ->
            exists b, try_convert (FScalar t) (DS vt v) = Ok (Some b) /\ bval_scalar b = Some v).
  { intros vt Hok Hk. rewrite try_convert_scalar, Hk, scalar_conv_same_kind by exact Hok.
    destruct (N.eqb _ _); eexists; split; reflexivity. }
  assert (Num : forall x, s_kind t <> KFloat64 -> conv_f64 (s_kind t) x = Some v ->
            exists b, try_convert (FScalar t) (DS ty_float64 (SF64 x)) = Ok (Some b) /\ bval_scalar b = Some v).
  { intros x Hk Hc. rewrite try_convert_f64, Hc by now apply wf_not_f64. eexists; split; reflexivity. }
  destruct v as [b|s|z|b|b]; cbn [redecode rebindable] in *.
  - injection Hd as <-. now apply Same.
  - injection Hd as <-. now apply Same.
  - injection Hd as <-. destruct Hr as (Hk & Hr & Hf).
    apply Num; [intros E; rewrite E in Hk; discriminate Hk|now apply int_rebinds].
  - destruct (is_finite _) eqn:Hfin; [|discriminate]. injection Hd as <-. destruct Hr as (Hk & Hb & Hlt).
    apply Num; [congruence|]. rewrite Hk. now apply f32_rebinds.
  - destruct (is_finite _); [|discriminate]. injection Hd as <-. now apply Same.
Qed.

(* the domain of the round trip (C09): integers of magnitude at most 2^53 (all of them float64
   values; the larger integers that a float64 also holds are left out), and every float32
   except +-MaxFloat32 (K9, [max_float32_not_rebound]) *)
Definition rt_dom (v : sval) : Prop :=
  match v with
  | SInt z => Z.abs z <= two53
  | SF32 b => (Rabs (B2R (f32_of_bits b)) < IZR max_float32_Z)%R
  | _ => True
  end.

Lemma val_rebindable t v : val_of_type t v = true -> rt_dom v ->
  rebindable t v /\ exists d, redecode reparse32 v = Some d.
Proof.
  unfold val_of_type. intros Hv Hd. destruct v as [b|s|z|b|b]; cbn [rebindable redecode rt_dom] in *.
  - destruct (s_kind t); try discriminate Hv. eauto.
  - destruct (s_kind t); try discriminate Hv. eauto.
  - assert (is_int_kind (s_kind t) = true /\ int_min (s_kind t) <= z <= int_max (s_kind t)) as [Hk Hr]
      by (destruct (s_kind t); try discriminate Hv;
          apply andb_prop in Hv as [[_ ?%Z.leb_le]%andb_prop ?%Z.leb_le]; auto).
    split; [|eauto]. repeat split; try assumption; try apply Hr.
    apply (small_int_format 53 (-1074)); [lia..|exact Hd].
  - destruct (s_kind t); try discriminate Hv.
    apply andb_prop in Hv as [[B0%Z.leb_le B1%Z.ltb_lt]%andb_prop Hfin]. rewrite Hfin. split; [|eauto].
    repeat split; [|exact Hd]. apply bits_of_f32_of_bits; [lia|]. destruct (f32_of_bits b); try discriminate; reflexivity.
  - destruct (s_kind t); try discriminate Hv. apply andb_prop in Hv as [_ Hfin]. rewrite Hfin. eauto.
Qed.

Theorem scalar_value_roundtrip t v :
  sty_wf t = true -> val_of_type t v = true -> rt_dom v ->
  exists d b, redecode reparse32 v = Some d /\ try_convert (FScalar t) d = Ok (Some b) /\ bval_scalar b = Some v.
Proof.
  intros Hwf Hv Hd. destruct (val_rebindable t v Hv Hd) as [R [d Ed]].
  destruct (rebinds t v d Hwf R Ed) as [b Hb]. now exists d, b.
Qed.

(* what a JSON document decodes a scalar to *)
Definition json_native_scalar (d : dval) : bool :=
  match d with
  | DS t (SF64 _) => N.eqb (s_id t) 13 && skind_eqb (s_kind t) KFloat64
  | DS t (SStr _) => N.eqb (s_id t) 1 && skind_eqb (s_kind t) KString
  | DS t (SBool _) => N.eqb (s_id t) 14 && skind_eqb (s_kind t) KBool
  | _ => false
  end.

Definition not_max32 (v : sval) : Prop :=
  match v with SF32 b => (Rabs (B2R (f32_of_bits b)) < IZR max_float32_Z)%R | _ => True end.

Lemma sty_eta (t : sty) : t = {| s_id := s_id t; s_kind := s_kind t |}.
Proof. destruct t; reflexivity. Qed.

Lemma native_binds t vt sv b v :
  json_native_scalar (DS vt sv) = true ->
  try_convert (FScalar t) (DS vt sv) = Ok (Some b) -> bval_scalar b = Some v ->
  v = sv /\ (s_id vt = s_id t \/ s_kind t = s_kind vt) \/
  exists fb, sv = SF64 fb /\ conv_f64 (s_kind t) fb = Some v.
Proof.
  intros Hn Hb Hv. rewrite try_convert_scalar in Hb.
  destruct (N.eqb_spec (s_id vt) (s_id t)) as [E|_].
  { injection Hb as <-. injection Hv as <-. auto. }
  destruct (scalar_conv (s_kind t) vt sv) as [w|] eqn:Ec; [|discriminate]. injection Hb as <-. injection Hv as <-.
  destruct sv as [x|x|x|x|fb]; try discriminate Hn; apply andb_prop in Hn as [Hid%N.eqb_eq Hk%skind_eqb_eq].
  3:{ right. exists fb. split; [reflexivity|]. rewrite <- Ec. symmetry. apply scalar_conv_f64.
      - cbn. now rewrite Hid.
      - unfold ids_ok. now rewrite Hid, Hk. }
  all: left; unfold scalar_conv in Ec; cbn in Ec; destruct (skind_eqb_eq (s_kind t) (s_kind vt)) as [H _];
    destruct (skind_eqb _ _); [injection Ec as <-; auto|discriminate].
Qed.

Lemma bound_rebindable t d b v :
  sty_wf t = true -> json_native_scalar d = true ->
  try_convert (FScalar t) d = Ok (Some b) -> bval_scalar b = Some v -> not_max32 v -> rebindable t v.
Proof.
  intros Hwf Hn Hb Hv H32. destruct d as [|vt sv| | |]; try discriminate Hn.
  destruct (native_binds t vt sv b v Hn Hb Hv) as [[-> Hk]|(fb & -> & Hc)].
  - (* the three builtin types have fixed ids *)
    unfold sty_wf in Hwf. apply andb_prop in Hwf as [[W13 W1]%andb_prop W14].
    destruct sv; try discriminate Hn; apply andb_prop in Hn as [Hid%N.eqb_eq Hkv%skind_eqb_eq]; cbn [rebindable];
      (destruct Hk as [Hk|Hk]; [|congruence]); rewrite <- Hk, Hid in *; now apply skind_eqb_eq.
  - pose proof (conv_f64_shape _ _ _ Hc) as Hs. destruct v; try contradiction; cbn [rebindable].
    + split; [exact Hs|]. now apply (conv_f64_int_range _ fb).
    + destruct Hs as [Hk [g ->]]. cbn [not_max32] in H32. now rewrite f32_of_bits_of_f32 in *.
    + apply Hs.
Qed.

(* C12, per field *)
Theorem binding_fixpoint t d b v :
  sty_wf t = true -> json_native_scalar d = true ->
  try_convert (FScalar t) d = Ok (Some b) -> bval_scalar b = Some v -> not_max32 v ->
  forall d', redecode reparse32 v = Some d' ->
  exists b', try_convert (FScalar t) d' = Ok (Some b') /\ bval_scalar b' = Some v.
Proof.
  intros Hwf Hn Hb Hv H32 d' Hd'. apply (rebinds t v d' Hwf); [|exact Hd']. now apply (bound_rebindable t d b).
Qed.
End Reparse.

(* K9: float32 MaxFloat32.  encoding/json writes it as 3.4028235e+38; that text parses to the
   float64 with the bit pattern below, which is ABOVE math.MaxFloat32 (so tryConvertFloat64
   declines it) although it still rounds to MaxFloat32 (so the strconv contract holds for it).
   0x47EFFFFFE54DAFF8, the correctly rounded float64 of that text; MaxFloat32 is 0x47EFFFFFE0000000. *)
Definition reparsed_max32_bits64 : Z := 5183643170655547384.
Lemma max_float32_not_rebound :
  f64_to_f32 (f64_of_bits reparsed_max32_bits64) = f32_of_bits max_float32_bits /\
  is_finite (f64_of_bits reparsed_max32_bits64) = true /\
  conv_f64 KFloat32 reparsed_max32_bits64 = None /\
  try_convert (FScalar {| s_id := 12; s_kind := KFloat32 |}) (DS ty_float64 (SF64 reparsed_max32_bits64)) = Ok None.
Proof.
  assert (E : bits_of_f32 (f64_to_f32 (f64_of_bits reparsed_max32_bits64)) = max_float32_bits) by (vm_compute; reflexivity).
  split.
  - rewrite <- (f32_of_bits_of_f32 (f64_to_f32 (f64_of_bits reparsed_max32_bits64))). now rewrite E.
  - repeat split; vm_compute; reflexivity.
Qed.
