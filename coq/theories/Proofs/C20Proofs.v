(* C20, native fields (the fields.data map with lastIndex of field.go): [wf_fields] - unique ids, indexes
   increasing along the list and bounded by f_last - is kept by f_set, hence by every option list and every
   program (native_inv).  Under it All() is the data itself (all_is_data), from which the coherence of
   Len/IsZero/Get/FindKeys (native_coherent) and "All() is the last writes in order" (all_is_write_order) follow. *)
From Coq Require Import Sorting.Sorted Sorting.Permutation.
From Errdef Require Import Base.Str Base.ListFacts Base.SortFacts Model.Core Model.Prog Check.C20 Proofs.ProgFacts.

Definition entry := (key * (fval * nat))%type.
Definition e_id (e : entry) : N := k_id (fst e).
Definition e_idx (e : entry) : nat := snd (snd e).

Definition wf_fields (f : fields) : Prop :=
  NoDup (map e_id (f_data f)) /\
  StronglySorted lt (map e_idx (f_data f)) /\
  Forall (fun e => e_idx e <= f_last f) (f_data f).

Lemma wf_empty : wf_fields fields_empty.
Proof. repeat split; constructor. Qed.

Lemma remove_in k l e : In e (f_remove k l) -> In e l /\ e_id e <> k_id k.
Proof.
  unfold f_remove. rewrite filter_In. intros [H1 H2]. split; [exact H1|].
  unfold key_eqb in H2. apply negb_true_iff in H2. now apply N.eqb_neq in H2.
Qed.

Lemma wf_set k v f : wf_fields f -> wf_fields (f_set k v f).
Proof.
  intros [Hn [Hs Hb]]. unfold f_set. repeat split; cbn [f_data f_last].
  - rewrite map_app. cbn [map]. change (e_id (k, (v, S (f_last f)))) with (k_id k).
    assert (N1 : NoDup (map e_id (f_remove k (f_data f)))) by now apply NoDup_map_filter.
    assert (N2 : ~ In (k_id k) (map e_id (f_remove k (f_data f)))).
    { intros Hin. apply in_map_iff in Hin as [e [E He]]. apply remove_in in He as [_ Hne]. congruence. }
    apply (Permutation_NoDup (Permutation_cons_append _ _)). now constructor.
  - rewrite map_app. cbn. apply SSorted_app_last; [now apply SSorted_map_filter|].
    apply Forall_forall. intros y Hy. apply in_map_iff in Hy as [e [E He]]. apply remove_in in He as [He _].
    rewrite Forall_forall in Hb. specialize (Hb e He). subst y. lia.
  - apply Forall_app. split.
    + apply Forall_forall. intros e He. apply remove_in in He as [He _].
      rewrite Forall_forall in Hb. specialize (Hb e He). lia.
    + constructor; [cbn; lia|constructor].
Qed.

Lemma wf_apply_opts os : forall d, wf_fields (d_fields d) -> wf_fields (d_fields (apply_opts d os)).
Proof.
  apply (fold_left_inv apply_opt (fun d => wf_fields (d_fields d))). intros d o H.
  destruct o; cbn; try exact H. now apply wf_set.
Qed.

Lemma ins_sorted e l : Forall (fun x => e_idx x < e_idx e) l -> ins_by_idx e l = l ++ [e].
Proof.
  induction l as [|x r IH]; intros F; [reflexivity|]. inversion F; subst. cbn.
  fold (e_idx e) (e_idx x). destruct (Nat.leb_spec (e_idx e) (e_idx x)); [lia|]. now rewrite IH.
Qed.

Lemma nat_leb_total a b : Nat.leb a b = false -> Nat.leb b a = true.
Proof. rewrite Nat.leb_gt, Nat.leb_le. apply Nat.lt_le_incl. Qed.

Lemma nat_leb_trans a b c : Nat.leb a b = true -> Nat.leb b c = true -> Nat.leb a c = true.
Proof. rewrite !Nat.leb_le. apply Nat.le_trans. Qed.

Lemma nat_leb_antisym a b : Nat.leb a b = true -> Nat.leb b a = true -> a = b.
Proof. rewrite !Nat.leb_le. apply Nat.le_antisymm. Qed.

Lemma sort_sorted_rev l : StronglySorted lt (map e_idx l) -> sort_by_idx l = l.
Proof.
  intros H. apply (isort_of_sorted e_idx Nat.leb ins_by_idx (fun _ => eq_refl) (fun _ _ _ => eq_refl)).
  apply (SSorted_map_impl e_idx lt); [|exact H]. intros a b Hab. now apply Nat.leb_le, Nat.lt_le_incl.
Qed.

Lemma all_is_data f : wf_fields f -> f_all f = map (fun e : entry => (fst e, fst (snd e))) (f_data f).
Proof. intros [_ [Hs _]]. unfold f_all. now rewrite sort_sorted_rev. Qed.

Theorem native_coherent f : wf_fields f ->
  f_len f = List.length (f_all f) /\
  (f_is_zero f = true <-> f_len f = 0) /\
  (forall k v, In (k, v) (f_all f) -> f_get f k = Some v /\ In k (f_find_keys f (k_name k))) /\
  (forall n k, In k (f_find_keys f n) -> k_name k = n /\ exists v, In (k, v) (f_all f)) /\
  (forall k, ~ In (k_id k) (map (fun kv : key * fval => k_id (fst kv)) (f_all f)) -> f_get f k = None).
Proof.
  intros Hwf. pose proof Hwf as [Hn _]. rewrite (all_is_data f Hwf). unfold f_is_zero, f_len, f_find_keys.
  split; [now rewrite map_length|]. split; [split; intros Z; now apply Nat.eqb_eq|]. split; [|split].
  - (* an entry of All(): Get finds it because ids are unique; FindKeys lists it *)
    intros k v Hkv. apply in_map_iff in Hkv as [e [E He]]. inversion E; subst. split.
    + unfold f_get. rewrite (find_NoDup e_id _ _ e Hn He (key_eqb_refl _)); [reflexivity|].
      intros y _ Q. now apply N.eqb_eq in Q.
    + apply in_map_iff. exists e. split; [reflexivity|]. apply filter_In. split; [exact He|apply str_eqb_refl].
  - (* FindKeys lists only keys of entries, under their own name *)
    intros n k Hk. apply in_map_iff in Hk as [e [E He]]. apply filter_In in He as [He Hm]. subst k.
    split; [now apply str_eqb_eq in Hm|]. exists (fst (snd e)). apply in_map_iff. now exists e.
  - intros k Hno. unfold f_get. destruct (find _ (f_data f)) as [e|] eqn:F; [|reflexivity].
    apply find_some in F as [He Hk]. exfalso. apply Hno. rewrite map_map. apply in_map_iff. exists e.
    split; [|exact He]. cbn. unfold key_eqb in Hk. now apply N.eqb_eq in Hk.
Qed.

Definition id_repr (e : entry) : N * string := (k_id (fst e), fv_repr (fst (snd e))).

Lemma data_after_writes os : forall d,
  map id_repr (f_data (d_fields (apply_opts d os)))
  = map id_repr (filter (fun e => negb (existsb (writes_key (e_id e)) os)) (f_data (d_fields d))) ++ write_order os.
Proof.
  unfold apply_opts. induction os as [|o r IH]; intros d.
  - cbn. rewrite app_nil_r. f_equal. induction (f_data (d_fields d)) as [|x l IHl]; cbn; [reflexivity|now rewrite IHl at 1].
  - cbn [fold_left]. rewrite IH.
    destruct o as [k v| | | | | | | |]; cbn [apply_opt set_fields d_fields existsb writes_key write_order orb];
      try reflexivity.
    set (f := d_fields d). unfold f_set at 1. cbn [f_data]. rewrite filter_app, map_app. unfold f_remove. rewrite filter_filter. cbn [filter].
    change (e_id (k, (v, S (f_last f)))) with (k_id k).
    assert (E : filter (fun x : key * (fval * nat) => negb (key_eqb (fst x) k) && negb (existsb (writes_key (e_id x)) r)) (f_data f)
              = filter (fun e : entry => negb ((k_id k =? e_id e)%N || existsb (writes_key (e_id e)) r)) (f_data f)).
    { apply filter_ext. intros e. unfold key_eqb, e_id. rewrite negb_orb. f_equal. f_equal. apply N.eqb_sym. }
    rewrite E. destruct (existsb (writes_key (k_id k)) r); cbn; [now rewrite app_nil_r|].
    rewrite <- app_assoc. reflexivity.
Qed.

Theorem all_is_write_order a org kind os :
  map (fun kv => (k_id (fst kv), fv_repr (snd kv))) (f_all (d_fields (define a org kind os))) = write_order os.
Proof.
  assert (W : wf_fields (d_fields (define a org kind os))) by (apply wf_apply_opts, wf_empty).
  rewrite (all_is_data _ W), map_map. unfold define.
  change (fun x : entry => (k_id (fst (fst x, fst (snd x))), fv_repr (snd (fst x, fst (snd x))))) with id_repr.
  rewrite data_after_writes. reflexivity.
Qed.

Theorem order_independent_of_iteration l l' :
  Permutation l l' -> NoDup (map e_idx l) -> sort_by_idx l = sort_by_idx l'.
Proof.
  exact (isort_perm_invariant e_idx Nat.leb ins_by_idx (fun _ => eq_refl) (fun _ _ _ => eq_refl)
           nat_leb_total nat_leb_trans nat_leb_antisym l l').
Qed.

Lemma wf_nodup_idx f : wf_fields f -> NoDup (map e_idx (f_data f)).
Proof.
  intros [_ [Hs _]]. induction Hs as [|a l Hs IH F]; constructor; [|exact IH].
  intros Hin. rewrite Forall_forall in F. specialize (F a Hin). lia.
Qed.

Definition wf_all (s : st) : Prop := forall d, In d (s_defs s) -> wf_fields (d_fields d).

Lemma wf_get_def s i : wf_all s -> wf_fields (d_fields (get_def s i)).
Proof.
  intros H. unfold get_def. destruct (Nat.lt_ge_cases i (List.length (s_defs s))) as [L|L].
  - apply H. now apply nth_In.
  - rewrite nth_overflow by exact L. apply wf_apply_opts, wf_empty.
Qed.

Lemma wf_with_options a d os : wf_fields (d_fields d) -> wf_fields (d_fields (with_options a d os)).
Proof. destruct os; [auto|]. intros H. now apply wf_apply_opts. Qed.

Lemma wf_all_step s x : wf_all s -> wf_all (step s x).
Proof.
  intros H. destruct (step_cases s x) as [kind os| |d ctx os _|d os _|]; try exact H;
    intros d0 Hd; apply in_app_or in Hd as [Hd|[<-|[]]]; try (now apply H).
  - apply wf_apply_opts, wf_empty.
  - now apply wf_with_options, wf_get_def.
  - now apply wf_with_options, wf_get_def.
Qed.

Theorem native_inv p : wf_all (run p).
Proof. apply (steps_ind wf_all wf_all_step). intros d []. Qed.
