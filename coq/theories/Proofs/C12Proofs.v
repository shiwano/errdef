(* C12: unmarshal does not depend on the order in which Go's map iteration hands over the decoded fields.  [both]
   sorts the fields of a node itself (both_norm), and two trees that differ only by such orders have one normal
   form (perm_norm); hence [deterministic].  Before that: what each field contributes (collect_as_flat_map). *)
From Coq Require Import Sorting.Permutation.
From Errdef Require Import Base.Str Base.Outcome Model.Convert Model.Unmarshal
  Proofs.UnmarshalFacts Proofs.SortFields Proofs.C13Proofs Proofs.C11Binding.

Definition typed_of (nr : string * fres) : list (ukey * bval) := match snd nr with FTyped k b => [(k, b)] | _ => [] end.
Definition unknown_of_f (nr : string * fres) : list (string * dval) := match snd nr with FUnknown v => [(fst nr, v)] | _ => [] end.
Definition fails_of (nr : string * fres) : list failure := match snd nr with FFail f => [f] | _ => [] end.

Lemma collect_as_flat_map rs :
  proj_typed (collect_fields rs) = flat_map typed_of rs /\
  proj_unknown (collect_fields rs) = flat_map unknown_of_f rs /\
  proj_fails (collect_fields rs) = flat_map fails_of rs.
Proof.
  induction rs as [|[n r] rest IH]; [repeat split; reflexivity|].
  cbn [collect_fields]. destruct (collect_fields rest) as [[[ty un] fl] pn].
  unfold proj_typed, proj_unknown, proj_fails in *. cbn [fst snd] in IH. destruct IH as [A [B C]].
  subst ty un fl. destruct r; cbn; repeat split; reflexivity.
Qed.

Lemma perm_flat_map {A B} (f : A -> list B) l l' : Permutation l l' -> Permutation (flat_map f l) (flat_map f l').
Proof. apply Permutation_flat_map. Qed.

Fixpoint norm (d : dd) : dd :=
  match d with
  | DD m k t fs st cs u => DD m k t (sort_fields fs) st (map (option_map norm) cs) u
  end.

Inductive opt_rel {A} (R : A -> A -> Prop) : option A -> option A -> Prop :=
| OR_none : opt_rel R None None
| OR_some x y : R x y -> opt_rel R (Some x) (Some y).

(* two decoded trees that differ only in the order in which the fields of a node are met
   (Go's map iteration order), at any node of the tree *)
Inductive dd_perm : dd -> dd -> Prop :=
| DP m k t fs fs' st cs cs' u :
    Permutation fs fs' -> NoDup (map fst fs) -> Forall2 (opt_rel dd_perm) cs cs' ->
    dd_perm (DD m k t fs st cs u) (DD m k t fs' st cs' u).

Lemma both_congr c m k t fs fs' st cs cs' u :
  sort_fields fs = sort_fields fs' -> map (cause_model c) cs = map (cause_model c) cs' ->
  both c (DD m k t fs st cs u) = both c (DD m k t fs' st cs' u).
Proof. intros E1 E2. rewrite !both_node. unfold node_err, bound_fields, causes_model. now rewrite E1, E2. Qed.

Theorem both_norm c : forall d, both c (norm d) = both c d.
Proof.
  induction d as [m k t fs st cs u IH] using dd_Forall_ind. cbn [norm].
  apply both_congr; [apply sort_fields_idem|]. rewrite map_map. apply map_ext_Forall.
  eapply Forall_impl; [|exact IH]. intros [x|] H; [|reflexivity]. cbn. unfold unmarshal_cause. now rewrite H.
Qed.

Theorem perm_norm : forall d d', dd_perm d d' -> norm d = norm d'.
Proof.
  induction d as [m k t fs st cs u IH] using dd_Forall_ind. intros d' H.
  inversion H as [m0 k0 t0 fs0 fs' st0 cs0 cs' u0 P N F]; subst. cbn [norm].
  rewrite (sort_fields_perm_invariant fs fs' P N). f_equal.
  clear H P N. induction F as [|a b r r' Hab F IHF]; [reflexivity|]. inversion IH as [|? ? Ha Hr]; subst.
  cbn [map]. f_equal; [|now apply IHF].
  destruct Hab as [|x y Hxy]; [reflexivity|]. cbn. f_equal. now apply Ha.
Qed.

Theorem deterministic c d d' : dd_perm d d' -> both c d = both c d'.
Proof. intros H. rewrite <- (both_norm c d), <- (both_norm c d'), (perm_norm d d' H). reflexivity. Qed.

Corollary deterministic_top c m k t fs fs' st cs u :
  Permutation fs fs' -> NoDup (map fst fs) ->
  both c (DD m k t fs st cs u) = both c (DD m k t fs' st cs u).
Proof. intros P N. apply both_congr; [now apply sort_fields_perm_invariant|reflexivity]. Qed.

Theorem first_accepting_key_wins ks v k b :
  first_convert ks v = Ok (Some (k, b)) ->
  exists pre post, ks = (pre ++ k :: post)%list /\ try_convert (uk_ty k) v = Ok (Some b) /\
                   forall k', In k' pre -> try_convert (uk_ty k') v = Ok None.
Proof.
  intros (pre & post & -> & F & A)%first_convert_some. exists pre, post. repeat split; [exact A|].
  now apply Forall_forall.
Qed.
