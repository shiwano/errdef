(* C13: the strict / lenient contracts of unmarshal on one node.  Kinds: resolve_kind_u_spec and unknown_kind_iff.
   Fields: the inversions unmarshal_ok_inv / unmarshal_fail_view and the view of bind_field; in strict mode the
   failure returned is located by first_failure_sorted over the name-sorted fields.  Last, corr_implies_ok13: the
   decision table Check.C13.ok holds of every observation that agrees with the model. *)
From Coq Require Import Sorting.Sorted.
From Errdef Require Import Base.Str Base.StrOrd Base.ListFacts Base.SortFacts Model.Core Model.Convert Model.Unmarshal Check.UM Check.C13
  Proofs.C11Binding Proofs.UnmarshalFacts Proofs.C10Proofs Proofs.SortFields.

Definition proj_typed (x : list (ukey * bval) * list (string * dval) * list failure * option string) := fst (fst (fst x)).
Definition proj_unknown (x : list (ukey * bval) * list (string * dval) * list failure * option string) := snd (fst (fst x)).
Definition proj_fails (x : list (ukey * bval) * list (string * dval) * list failure * option string) := snd (fst x).

Lemma resolved_known c k :
  resolved_def c k = if kind_known c k then resolve_kind_def (u_defs c) k else if u_strict c then None else u_default c.
Proof. unfold resolved_def, kind_known, resolve_kind_def. rewrite existsb_find. now destruct (find _ _). Qed.

Theorem lenient_unknown_kind c m k t fs st cs u :
  u_strict c = false -> u_default c = None -> kind_known c k = false ->
  unmarshal c (DD m k t fs st cs u) = UFail [kind_failure k].
Proof. intros Hs Hd Hk. apply unknown_kind_iff. now rewrite resolved_known, Hk, Hs. Qed.

Theorem lenient_default c k dflt :
  u_strict c = false -> u_default c = Some dflt -> kind_known c k = false ->
  resolve_kind_u c k = UOk dflt.
Proof. intros Hs Hd Hk. now rewrite resolve_kind_u_spec, resolved_known, Hk, Hs, Hd. Qed.

Theorem strict_unknown_kind c m k t fs st cs u :
  u_strict c = true -> kind_known c k = false ->
  unmarshal c (DD m k t fs st cs u) = UFail [kind_failure k].
Proof. intros Hs Hk. apply unknown_kind_iff. now rewrite resolved_known, Hk, Hs. Qed.

Theorem known_kind_first c k d :
  find (fun d => str_eqb (d_kind (ud_def d)) k) (u_defs c) = Some d -> resolve_kind_u c k = UOk d.
Proof. intros F. rewrite resolve_kind_u_spec. unfold resolved_def, resolve_kind_def. now rewrite F. Qed.

Lemma expected_def_eq c k : expected_def c k = resolved_def c k.
Proof. reflexivity. Qed.

Lemma resolved_iff c k def : resolve_kind_u c k = UOk def <-> resolved_def c k = Some def.
Proof. rewrite resolve_kind_u_spec. destruct (resolved_def c k); split; intros E; inversion E; reflexivity. Qed.

Lemma bind_unregistered c d kind n v :
  registered c d n = false -> is_placeholder v = false ->
  bind_field c d kind n v = if u_strict c then FFail (field_failure kind n) else FUnknown v.
Proof.
  intros Hr Hp. apply orb_false_iff in Hr as [H1 H2].
  rewrite bind_field_cands, Hp. unfold cands. now rewrite (named_none _ _ H1), (named_none _ _ H2).
Qed.

(* restoring a cause never fails with anything but ErrInternal: unknown kinds and
   unknown fields of a cause make it an unknown cause instead *)
Theorem cause_fail_internal c d : match unmarshal_cause c d with UFail fs => fs = [internal_failure] | _ => True end.
Proof. pose proof (cause_inv c d) as H. now destruct (unmarshal_cause c d). Qed.

Theorem lenient_fields_never_fail c m k t fs st cs u f :
  u_strict c = false ->
  match unmarshal c (DD m k t fs st cs u) with
  | UFail ffs => In f ffs -> fl_class f <> cls_field
  | _ => True
  end.
Proof.
  intros Hs. destruct (unmarshal c _) as [e|ffs|w] eqn:E; auto.
  apply unmarshal_fail_view in E as (f0 & -> & Hf). intros [<-|[]]. destruct Hf; [discriminate|congruence|discriminate].
Qed.

Theorem lenient_unknown_retrievable c m k t fs st cs u def e n v :
  u_strict c = false -> resolve_kind_u c k = UOk def ->
  unmarshal c (DD m k t fs st cs u) = UOk e ->
  In (n, v) fs -> registered c def n = false -> is_placeholder v = false ->
  In (n, v) (r_unknown e) /\ rf_get e (AKName n) <> None /\ In (AKName n) (rf_find_keys e n).
Proof.
  intros Hs R E Hin Hr Hp. apply unmarshal_ok_inv in E as (def' & cs' & ty & un & R' & _ & Fc & ->).
  rewrite R in R'. injection R' as <-. cbn [r_unknown].
  assert (U : In (n, v) un).
  { apply (collect_unknown n v Fc), bound_fields_in. exists v. split; [exact Hin|]. now rewrite (bind_unregistered c def k n v Hr Hp), Hs. }
  split; [exact U|]. split.
  - unfold rf_get. cbn [r_unknown].
    destruct (find (fun nv => str_eqb (fst nv) n) un) eqn:F; [discriminate|].
    eapply find_none in F; [|exact U]. cbn in F. rewrite str_eqb_refl in F. discriminate.
  - unfold rf_find_keys. cbn [r_unknown]. apply in_or_app. right.
    assert (X : existsb (fun nv : string * dval => str_eqb (fst nv) n) un = true).
    { apply existsb_exists. exists (n, v). split; [exact U|apply str_eqb_refl]. }
    rewrite X. now left.
Qed.

Lemma first_failure_sorted (g : string * dval -> string * fres) L :
  StronglySorted name_le L -> forall x fx, In x L -> snd (g x) = FFail fx ->
  forall ty un fl pn, collect_fields (map g L) = (ty, un, fl, pn) ->
  exists f rest y, fl = f :: rest /\ In y L /\ String.leb (fst y) (fst x) = true /\ snd (g y) = FFail f.
Proof.
  induction 1 as [|a L S IH Ha]; intros x fx Hin Hx ty un fl pn E; [destruct Hin|].
  cbn [map collect_fields] in E. destruct (g a) as [n r] eqn:Ga.
  destruct (collect_fields (map g L)) as [[[ty0 un0] fl0] pn0].
  destruct Hin as [<-|Hin].
  - (* x is the head: it fails, so it is the first failure *)
    rewrite Ga in Hx. cbn in Hx. subst r. inversion E; subst.
    exists fx, fl0, a. repeat split; [now left|apply leb_refl|now rewrite Ga].
  - (* x is in L, and so is a first failure f of L; the head comes before it if it fails too *)
    destruct (IH x fx Hin Hx _ _ _ _ eq_refl) as (f & rest & y & -> & Hy & Hle & Hg).
    assert (Cr : (exists f0, r = FFail f0) \/ fl = f :: rest) by (destruct r; inversion E; eauto).
    destruct Cr as [[f0 ->]| ->].
    + inversion E; subst. exists f0, (f :: rest), a. repeat split; [now left| |now rewrite Ga].
      rewrite Forall_forall in Ha. now apply Ha.
    + exists f, rest, y. repeat split; auto. now right.
Qed.

(* since the fix for F12 the fields are visited in name order and the first failure returns *)
Theorem first_field_failure c m k t fs st cs u def n v fx :
  resolve_kind_u c k = UOk def -> In (n, v) fs -> bind_field c def k n v = FFail fx ->
  exists f n' v', unmarshal c (DD m k t fs st cs u) = UFail [f] /\
    In (n', v') fs /\ String.leb n' n = true /\ bind_field c def k n' v' = FFail f.
Proof.
  intros R Hin Hb. rewrite unmarshal_node. unfold node_err. rewrite R.
  destruct (fields_collected c def k fs) as (ty & un & fl & Fc). rewrite Fc.
  destruct (first_failure_sorted (fun nv => (fst nv, bind_field c def k (fst nv) (snd nv))) (sort_fields fs)
              (sort_fields_sorted fs) (n, v) fx (proj2 (sort_fields_in fs (n, v)) Hin) Hb _ _ _ _ Fc)
    as (f & rest & [n' v'] & -> & Hy & Hle & Hg).
  exists f, n', v'. repeat split; [now apply sort_fields_in|exact Hle|exact Hg].
Qed.

Theorem strict_unknown_field c m k t fs st cs u def n v :
  u_strict c = true -> resolve_kind_u c k = UOk def ->
  In (n, v) fs -> registered c def n = false -> is_placeholder v = false ->
  exists f n' v', unmarshal c (DD m k t fs st cs u) = UFail [f] /\
    In (n', v') fs /\ String.leb n' n = true /\ bind_field c def k n' v' = FFail f.
Proof.
  intros Hs R Hin Hr Hp. apply (first_field_failure c m k t fs st cs u def n v (field_failure k n) R Hin).
  now rewrite (bind_unregistered c def k n v Hr Hp), Hs.
Qed.

Corollary strict_unknown_field_alone c m k t fs st cs u def n v :
  u_strict c = true -> resolve_kind_u c k = UOk def ->
  In (n, v) fs -> registered c def n = false -> is_placeholder v = false ->
  (forall n' v' f', In (n', v') fs -> bind_field c def k n' v' = FFail f' -> n' = n) ->
  unmarshal c (DD m k t fs st cs u) = UFail [field_failure k n].
Proof.
  intros Hs R Hin Hr Hp Hothers.
  destruct (strict_unknown_field c m k t fs st cs u def n v Hs R Hin Hr Hp) as [f [n' [v' [E [Hy [_ Hg]]]]]].
  rewrite E. assert (n' = n) by exact (Hothers n' v' f Hy Hg). subst n'.
  destruct (is_placeholder v') eqn:Hp'.
  - rewrite bind_field_cands, Hp' in Hg. discriminate.
  - rewrite (bind_unregistered c def k n v' Hr Hp'), Hs in Hg. now inversion Hg.
Qed.

Theorem strict_success_only_placeholders c m k t fs st cs u e n v :
  u_strict c = true -> unmarshal c (DD m k t fs st cs u) = UOk e -> In (n, v) (r_unknown e) ->
  v = redacted_val.
Proof.
  intros Hs E Hin. apply unmarshal_ok_inv in E as (def & cs' & ty & un & _ & _ & Fc & ->). cbn [r_unknown] in Hin.
  apply (collect_unknown n v Fc), bound_fields_in in Hin as [v0 [_ B]]. symmetry in B. apply bind_field_inv in B.
  inversion B; [reflexivity|congruence].
Qed.

Lemma sort_S_in {A} (l : list (string * A)) x : In x (fold_right ins_S [] l) <-> In x l.
Proof. exact (isort_in fst String.leb ins_S (fun _ => eq_refl) (fun _ _ _ => eq_refl) l x). Qed.

Lemma oval_eqb_placeholder ov : oval_eqb ov (OVS 1 (SStr redacted_str)) = true -> is_placeholder_oval ov = true.
Proof.
  destruct ov as [|t v|s|p e v|t r]; cbn; try discriminate. intros H. apply andb_true_iff in H as [Ht Hv].
  apply N.eqb_eq in Ht. subst t. destruct v; cbn in Hv; try discriminate. exact Hv.
Qed.

Theorem corr_implies_ok13 c : UM.corr c = true -> C13.ok c = true.
Proof.
  intros H. destruct (corr_inv c H) as [_ [Hst [_ Hm]]]. unfold C13.ok. rewrite Hst. cbn [andb].
  unfold model_res in Hm.
  destruct (c_in c) as [[m k t fs st cs u]|]; [|reflexivity]. destruct (c_decerr c); [reflexivity|].
  cbn [unmarshal_top] in Hm. set (cfg := c_cfg c) in *. set (o := c_obs c) in *. unfold unknown_of, def_of.
  rewrite !expected_def_eq. pose proof (resolved_known cfg k) as K.
  destruct (unmarshal cfg (DD m k t fs st cs u)) as [e|ffs|w] eqn:E.
  - (* success *)
    destruct Hm as [Hc [oe [Ro Hr]]]. rewrite Ro, Hc.
    destruct (proj1 (unmarshal_ok_inv _ _ _ _ _ _ _ _ _) E) as (def & cs' & typed & unknown & R & _ & _ & Ee).
    pose proof (proj1 (resolved_iff _ _ _) R) as Ex. rewrite Ex in K. rewrite Ex.
    destruct oe as [d' m' ty' un' al' st' cs0].
    rewrite Ee in Hr. cbn [orerr_of orerr_eqb] in Hr. repeat (apply andb_true_iff in Hr as [Hr ?]).
    match goal with Hu : list_eqb _ un' _ = true |- _ => apply list_eqb_Forall2 in Hu; rename Hu into Hun end.
    destruct (u_strict cfg) eqn:Hs.
    + destruct (kind_known cfg k); [|discriminate]. cbn [orb andb].
      apply andb_true_iff. split; [apply andb_true_iff; split|].
      * (* no unregistered field: it would have failed *)
        rewrite orb_false_r. apply negb_true_iff. destruct (existsb _ fs) eqn:X; [|reflexivity]. exfalso.
        apply existsb_exists in X as [[n v] [Hin Q]]. cbn in Q. apply andb_true_iff in Q as [Q1 Q2].
        apply negb_true_iff in Q1. apply negb_true_iff in Q2.
        destruct (strict_unknown_field cfg m k t fs st cs u def n v Hs R Hin Q1 Q2) as [f [n' [v' [E' _]]]]. congruence.
      * reflexivity.
      * (* only placeholders among the unknown fields *)
        apply forallb_forall. intros [n ov] Hin.
        destruct (Forall2_in_l _ _ _ _ Hun Hin) as [[n2 ov2] [Hin2 Q]]. cbn in Q. apply andb_true_iff in Q as [_ Q].
        apply (proj1 (sort_S_in _ _)) in Hin2. apply (proj1 (in_map_iff _ _ _)) in Hin2 as [[n3 v3] [Q3 Hin3]]. inversion Q3; subst n2 ov2.
        rewrite (strict_success_only_placeholders cfg m k t fs st cs u e n3 v3 Hs E) in Q by (rewrite Ee; exact Hin3).
        now apply oval_eqb_placeholder.
    + (* lenient *)
      apply andb_true_iff. split; [apply andb_true_iff; split|].
      * destruct (kind_known cfg k); [reflexivity|]. cbn in K. rewrite <- K. cbn [orb negb].
        apply Nat.eqb_eq in Hr. rewrite Hr. cbn. apply Nat.eqb_refl.
      * reflexivity.
      * apply forallb_forall. intros [n v] Hin. cbn [fst snd].
        destruct (registered cfg def n) eqn:Rg; [reflexivity|]. destruct (is_placeholder v) eqn:Pl; [reflexivity|]. cbn [orb].
        destruct (lenient_unknown_retrievable cfg m k t fs st cs u def e n v Hs R E Hin Rg Pl) as [Hu _].
        rewrite Ee in Hu. cbn [r_unknown] in Hu.
        assert (Hs2 : In (n, oval_of_dval v) (fold_right ins_S [] (map (fun nv : string * dval => (fst nv, oval_of_dval (snd nv))) unknown))).
        { apply sort_S_in. apply in_map_iff. now exists (n, v). }
        destruct (Forall2_in_r _ _ _ _ Hun Hs2) as [[n1 ov1] [Hin1 Q]]. cbn in Q.
        apply existsb_exists. exists (n1, ov1). split; [exact Hin1|exact Q].
  - (* failure *)
    destruct Hm as [Ro [f0 [Hinf [Hf1 [Hf2 Hf3]]]]]. rewrite Ro, Hf1, Hf2, Hf3.
    apply unmarshal_fail_view in E as (f & -> & Hf). destruct Hinf as [<-|[]]. cbn [dd_kind dd_fields] in Hf.
    destruct Hf as [Ex|def n v Ex Hin Hs|def Ex];
      rewrite Ex in K; rewrite Ex; cbn [fl_class fl_kind fl_field kind_failure field_failure internal_failure].
    + rewrite (str_eqb_refl k). destruct (kind_known cfg k), (u_strict cfg); cbn in K; rewrite <- ?K; reflexivity.
    + rewrite Hs in K. rewrite Hs. destruct (kind_known cfg k); [|discriminate K].
      replace (existsb (fun nv : string * dval => str_eqb (fst nv) n) fs) with true
        by (symmetry; apply existsb_exists; exists (n, v); split; [exact Hin|apply str_eqb_refl]).
      rewrite (str_eqb_refl k). destruct (existsb _ fs); reflexivity.
    + destruct (u_strict cfg), (kind_known cfg k); cbn in K; try discriminate K; rewrite <- ?K, ?orb_true_r; reflexivity.
  - pose proof (proj1 (both_inv cfg (DD m k t fs st cs u))) as Cl. rewrite E in Cl. destruct Cl.
Qed.
