(* Package resolver (Model/Resolver.v) against "the first definition in registration order".  The specification
   (spec_kind, spec_field) and its domain (wf_defs, defs_ok, want_ok) are defined here; Check/C14.v evaluates them.
   Compaction keeps first matches (find_compact), the first-wins byKind map is [find] (kfind_fold), and
   FieldValue.Equal is go_eq on stored values (fv_equal_raw); hence resolve_kind_first and resolve_field_first. *)
From Errdef Require Import Base.Str Base.ListFacts Base.Outcome Model.Value Model.Resolver.

Definition spec_kind (defs : list rdef) (k : string) : option rdef :=
  find (fun d => str_eqb (rd_kind d) k) defs.

Definition unwrap1 (v : rv) : rv := match v with RFV i => i | _ => v end.

Definition spec_match (key : N) (want : rv) (d : rdef) : bool :=
  match rd_get d key with
  | Some (_, v) => go_eq v (unwrap1 want)
  | None => false
  end.
Definition spec_field (defs : list rdef) (key : N) (want : rv) : option rdef :=
  find (spec_match key want) defs.

(* definitions are Go pointers: one identity, one content *)
Definition wf_defs (defs : list rdef) : Prop :=
  forall d1 d2, In d1 defs -> In d2 defs -> rd_id d1 = rd_id d2 -> d1 = d2.

Lemma wf_tail x l : wf_defs (x :: l) -> wf_defs l.
Proof. intros H d1 d2 H1 H2. apply H; now right. Qed.

Lemma compact_cons2 x y r :
  compact (x :: y :: r) = if N.eqb (rd_id x) (rd_id y) then compact (y :: r) else x :: compact (y :: r).
Proof. reflexivity. Qed.

Lemma compact_incl l d : In d (compact l) -> In d l.
Proof.
  induction l as [|x [|y r] IH]; [contradiction|exact (fun H => H)|]. rewrite compact_cons2.
  destruct (N.eqb _ _); [right; now apply IH|]. intros [->|H]; [now left|right; now apply IH].
Qed.

Lemma find_compact (p : rdef -> bool) l : wf_defs l -> find p (compact l) = find p l.
Proof.
  induction l as [|x [|y r] IH]; intros Hwf; [reflexivity..|].
  specialize (IH (wf_tail _ _ Hwf)). rewrite compact_cons2.
  destruct (N.eqb (rd_id x) (rd_id y)) eqn:E.
  - apply N.eqb_eq in E. rewrite (Hwf x y (or_introl eq_refl) (or_intror (or_introl eq_refl)) E), IH.
    cbn [find]. now destruct (p y).
  - cbn [find] in *. now rewrite IH.
Qed.

Definition kfind (m : list (string * rdef)) (k : string) :=
  option_map snd (find (fun kv => str_eqb (fst kv) k) m).

Lemma kfind_insert m d k :
  kfind (kind_insert m d) k =
  match kfind m k with
  | Some x => Some x
  | None => if str_eqb (rd_kind d) k then Some d else None
  end.
Proof.
  unfold kind_insert.
  destruct (existsb (fun kv => str_eqb (fst kv) (rd_kind d)) m) eqn:E.
  - destruct (kfind m k) eqn:F; [reflexivity|].
    destruct (str_eqb (rd_kind d) k) eqn:Ek; [|reflexivity].
    apply str_eqb_eq in Ek. subst k. unfold kfind in F. rewrite existsb_find in E. now destruct (find _ m).
  - unfold kfind. rewrite find_app. destruct (find _ m); [reflexivity|].
    simpl. destruct (str_eqb (rd_kind d) k); reflexivity.
Qed.

Lemma kfind_fold ds : forall m k,
  kfind (fold_left kind_insert ds m) k =
  match kfind m k with Some x => Some x | None => spec_kind ds k end.
Proof.
  induction ds as [|d r IH]; intros m k; simpl.
  - destruct (kfind m k); reflexivity.
  - rewrite IH, kfind_insert. destruct (kfind m k); [reflexivity|].
    unfold spec_kind. simpl. destruct (str_eqb (rd_kind d) k); reflexivity.
Qed.

Lemma resolve_kind_first defs k :
  wf_defs defs -> resolve_kind (new_resolver defs) k = spec_kind defs k.
Proof.
  intros Hwf. unfold resolve_kind, new_resolver. cbn [r_by_kind].
  change (kfind (fold_left kind_insert (compact defs) []) k = spec_kind defs k).
  rewrite kfind_fold. cbn. unfold spec_kind. now apply find_compact.
Qed.

Lemma resolve_kind_none_iff defs k :
  wf_defs defs ->
  (resolve_kind (new_resolver defs) k = None <-> forall d, In d defs -> rd_kind d <> k).
Proof.
  intros Hwf. rewrite resolve_kind_first by assumption. unfold spec_kind. split.
  - intros H d Hin E. eapply find_none in H; eauto. cbn in H. subst k.
    rewrite str_eqb_refl in H. discriminate.
  - intros H. destruct (find _ defs) as [d|] eqn:F; [|reflexivity].
    apply find_some in F as [Hin E]. apply str_eqb_eq in E. now apply H in Hin.
Qed.

Lemma go_eq_dyn a b : go_eq a b = true -> dyn a = dyn b.
Proof.
  destruct a, b; simpl; try discriminate; try reflexivity; intros H;
    repeat (apply andb_true_iff in H as [H ?]);
    try (apply N.eqb_eq in H; now subst).
  all: destruct u; try discriminate; destruct u0; try discriminate; reflexivity.
Qed.

Definition not_fv (v : rv) : bool := match v with RFV _ => false | _ => true end.
Definition plain (v : rv) : bool := match v with RFV _ | RNil => false | _ => true end.

(* what other.(T) needs: a stored value always has static type T *)
Definition stored_ok (T : st) (v : rv) : bool :=
  plain v && match T with STy t => opt_N_eqb (dyn v) (Some t) | SAny => true end.

Lemma opt_N_eqb_eq a b : opt_N_eqb a b = true <-> a = b.
Proof. apply option_eqb_eq. intros; apply N.eqb_eq. Qed.

Lemma go_eq_false a b : dyn a <> dyn b -> go_eq a b = false.
Proof. intros H. destruct (go_eq a b) eqn:G; [|reflexivity]. apply go_eq_dyn in G. contradiction. Qed.

(* Against a value that is not a FieldValue, Equal does not recurse; the two arms of its builtin_scalar test
   compare alike. *)
Lemma fv_equal_plain T stored other : not_fv other = true ->
  fv_equal T stored other =
  if asserts T other then
    if negb (opt_N_eqb (dyn stored) (dyn other)) then Ok false else
    match stored with
    | RUrl a => match a, other with
                | Some _, RUrl (Some _) => Ok (go_eq stored other)
                | _, RUrl b => Ok (match a, b with None, None => true | _, _ => false end)
                | _, _ => Ok false end
    | RNil | RFV _ => Ok false
    | _ => Ok (go_eq stored other) end
  else Ok false.
Proof.
  intros Ho. destruct other; try discriminate Ho; cbn [fv_equal]; destruct (asserts T _); try reflexivity;
    destruct (negb _); try reflexivity; destruct stored; try reflexivity;
    try (destruct (builtin_scalar _); reflexivity).
Qed.

Lemma asserts_false_dyn T stored other :
  stored_ok T stored = true -> asserts T other = false -> dyn stored <> dyn other.
Proof.
  intros Hs A E. apply andb_true_iff in Hs as [Hp HT]. destruct T as [t|].
  - apply opt_N_eqb_eq in HT.
    assert (A' : other = RNil \/ opt_N_eqb (dyn other) (Some t) = false) by (destruct other; auto).
    destruct A' as [->|A']; [rewrite HT in E; discriminate E|].
    rewrite <- E, HT, (proj2 (opt_N_eqb_eq _ _) eq_refl) in A'. discriminate.
  - assert (other = RNil) as -> by (destruct other; try discriminate A; reflexivity).
    destruct stored; discriminate.
Qed.

Lemma fv_equal_raw T stored other :
  stored_ok T stored = true -> not_fv other = true ->
  fv_equal T stored other = Ok (go_eq stored other).
Proof.
  intros Hs Ho. rewrite (fv_equal_plain _ _ _ Ho). destruct (asserts T other) eqn:A.
  - destruct (opt_N_eqb (dyn stored) (dyn other)) eqn:D; cbn [negb].
    + (* same dynamic type: every arm but the URL one is go_eq as it stands *)
      apply andb_true_iff in Hs as [Hp _]. destruct stored as [| | | | |a| |]; try discriminate Hp; try reflexivity.
      destruct other as [| | | | |b| |]; try (now destruct a). now destruct a, b.
    + rewrite go_eq_false; [reflexivity|]. intro E. apply opt_N_eqb_eq in E. congruence.
  - rewrite go_eq_false; [reflexivity|]. exact (asserts_false_dyn T stored other Hs A).
Qed.

Definition defs_ok (defs : list rdef) : Prop :=
  forall d key T v, In d defs -> rd_get d key = Some (T, v) -> stored_ok T v = true.
(* ResolveField unwraps one FieldValue layer, not two *)
Definition want_ok (want : rv) : bool := match want with RFV (RFV _) => false | _ => true end.

Lemma resolve_field_func_find ds key w :
  not_fv w = true -> defs_ok ds ->
  resolve_field_func ds key (fun T v => fv_equal T v w)
  = Ok (find (fun d => match rd_get d key with Some (_, v) => go_eq v w | None => false end) ds).
Proof.
  intros Hw. induction ds as [|d r IH]; intros Hok; [reflexivity|].
  assert (Hr : defs_ok r) by (intros d' k T v Hin; apply Hok; now right).
  cbn [resolve_field_func find].
  destruct (rd_get d key) as [[T v]|] eqn:G; [|now apply IH].
  rewrite fv_equal_raw; [|eapply Hok; [now left|exact G]|exact Hw].
  destruct (go_eq v w); [reflexivity|now apply IH].
Qed.

Lemma defs_ok_compact defs : defs_ok defs -> defs_ok (compact defs).
Proof. intros H d key T v Hin. exact (H d key T v (compact_incl _ _ Hin)). Qed.

Lemma resolve_field_first defs key want :
  wf_defs defs -> defs_ok defs -> want_ok want = true ->
  resolve_field (new_resolver defs) key want = Ok (spec_field defs key want).
Proof.
  intros Hwf Hok Hw. unfold resolve_field, new_resolver, spec_field. cbn [r_defs].
  rewrite <- (find_compact (spec_match key want)) by assumption.
  unfold spec_match.
  destruct want as [| | | | | | |inner]; cbn [unwrap1];
    try (apply resolve_field_func_find; [reflexivity|now apply defs_ok_compact]).
  destruct inner; try discriminate Hw;
    (apply resolve_field_func_find; [reflexivity|now apply defs_ok_compact]).
Qed.

Lemma or_default_iff {A} (dflt : A) o r :
  or_default dflt o = r <-> (exists a, o = Some a /\ r = a) \/ (o = None /\ r = dflt).
Proof.
  destruct o as [a|]; cbn; split.
  - intros <-. left. now exists a.
  - intros [[a' [E ->]]|[E _]]; [now inversion E|discriminate].
  - intros <-. now right.
  - intros [[a' [E _]]|[_ ->]]; [discriminate|reflexivity].
Qed.
