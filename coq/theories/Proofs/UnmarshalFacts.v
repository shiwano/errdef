(* What every client of Model/Unmarshal.v needs of it: induction over decoded trees, the equation of [both]
   on a node, which failure a node can report and why, and the case analysis of [bind_field] and
   [resolve_kind_u]. *)
From Errdef Require Import Base.Str Base.Outcome Model.Core Model.Convert Model.Unmarshal Proofs.SortFields Proofs.C11Binding.

Section dd_induction.
  Variable P : dd -> Prop.
  Definition on_cause (o : option dd) : Prop := match o with Some d => P d | None => True end.
  Hypothesis H : forall m k t fs st cs u, Forall on_cause cs -> P (DD m k t fs st cs u).
  Fixpoint dd_Forall_ind (d : dd) : P d :=
    match d with
    | DD m k t fs st cs u =>
        H m k t fs st cs u
          ((fix go (l : list (option dd)) : Forall on_cause l :=
              match l with
              | [] => Forall_nil _
              | o :: r => Forall_cons o (match o return on_cause o with Some x => dd_Forall_ind x | None => I end) (go r)
              end) cs)
    end.
End dd_induction.

Definition kind_failure (k : string) : failure := {| fl_class := cls_kind; fl_kind := k; fl_field := "" |}.
Definition field_failure (k n : string) : failure := {| fl_class := cls_field; fl_kind := k; fl_field := n |}.

Definition resolved_def (c : ucfg) (k : string) : option udef :=
  match resolve_kind_def (u_defs c) k with
  | Some d => Some d
  | None => if u_strict c then None else u_default c
  end.

Lemma resolve_kind_u_spec c k :
  resolve_kind_u c k = match resolved_def c k with Some d => UOk d | None => UFail [kind_failure k] end.
Proof.
  unfold resolve_kind_u, resolved_def.
  destruct (u_default c); [destruct (u_strict c)|]; destruct (resolve_kind_def (u_defs c) k); try reflexivity.
  destruct (u_strict c); reflexivity.
Qed.

Lemma resolve_kind_u_ok c k d : resolve_kind_u c k = UOk d <->
  resolve_kind_def (u_defs c) k = Some d \/
  (resolve_kind_def (u_defs c) k = None /\ u_default c = Some d /\ u_strict c = false).
Proof.
  rewrite resolve_kind_u_spec. unfold resolved_def.
  destruct (resolve_kind_def (u_defs c) k) as [x|]; [|destruct (u_strict c), (u_default c) as [y|]];
    (split; [intros H; inversion H; auto|intros [H|[N [H S]]]; try discriminate; inversion H; reflexivity]).
Qed.

Lemma resolve_kind_def_some defs k d : resolve_kind_def defs k = Some d -> In d defs /\ d_kind (ud_def d) = k.
Proof. intros F. apply find_some in F as [Hin E]. split; [exact Hin|now apply str_eqb_eq]. Qed.

Lemma try_convert_no_panic T v : is_panic (try_convert T v) = false.
Proof.
  unfold try_convert, opt_bscalar, is_f64_val, is_i64_val.
  destruct T as [t|id e|id|id|id kd [[eid ekd]|]|id]; destruct v as [|t0 sv|id0 tbl|bs|id0 kd0 conv0]; cbn;
    try destruct sv; cbn;
    repeat match goal with
    | |- context [if ?b then _ else _] => destruct b; cbn
    | |- context [find ?f ?l] => destruct (find f l) as [[? [?|]]|]; cbn
    | |- context [conv_f64 ?k ?b] => destruct (conv_f64 k b); cbn
    | |- context [conv_i64 ?k ?b] => destruct (conv_i64 k b); cbn
    end; reflexivity.
Qed.

Lemma first_convert_no_panic ks v : is_panic (first_convert ks v) = false.
Proof.
  induction ks as [|k r IH]; cbn; [reflexivity|].
  pose proof (try_convert_no_panic (uk_ty k) v) as H.
  destruct (try_convert (uk_ty k) v) as [[b|]|c|w]; cbn in *; try reflexivity; [exact IH|discriminate].
Qed.

Lemma first_convert_ok ks v k b :
  first_convert ks v = Ok (Some (k, b)) -> In k ks /\ try_convert (uk_ty k) v = Ok (Some b).
Proof. intros (l1 & l2 & -> & _ & A)%first_convert_some. split; [apply in_elt|exact A]. Qed.

Lemma named_In n ks k : In k (named n ks) <-> In k ks /\ k_name (uk_key k) = n.
Proof. unfold named. rewrite filter_In, str_eqb_eq. reflexivity. Qed.

Lemma named_none n ks : existsb (fun k => str_eqb (k_name (uk_key k)) n) ks = false -> named n ks = [].
Proof.
  unfold named. induction ks as [|k r IH]; cbn; [reflexivity|]. intros H.
  apply orb_false_iff in H as [H1 H2]. rewrite H1. now apply IH.
Qed.

Definition redacted_val : dval := DS {| s_id := 1; s_kind := KString |} (SStr redacted_str).

(* the outcomes of [bind_field] ([bind_field_cands], without the panic that [try_convert] never raises) *)
Inductive bind_view (c : ucfg) (d : udef) (kind n : string) (v : dval) : fres -> Prop :=
| BV_redacted : is_placeholder v = true -> bind_view c d kind n v (FUnknown redacted_val)
| BV_typed k b : is_placeholder v = false -> first_convert (cands c d n) v = Ok (Some (k, b)) ->
    bind_view c d kind n v (FTyped k b)
| BV_internal cl : is_placeholder v = false -> first_convert (cands c d n) v = Fail cl ->
    bind_view c d kind n v (FFail internal_failure)
| BV_strict : is_placeholder v = false -> first_convert (cands c d n) v = Ok None ->
    u_strict c = true -> bind_view c d kind n v (FFail (field_failure kind n))
| BV_lenient : is_placeholder v = false -> first_convert (cands c d n) v = Ok None ->
    u_strict c = false -> bind_view c d kind n v (FUnknown v).

Lemma bind_field_inv c d kind n v r : bind_field c d kind n v = r -> bind_view c d kind n v r.
Proof.
  intros <-. rewrite bind_field_cands. destruct (is_placeholder v) eqn:Hp; [now constructor|].
  pose proof (first_convert_no_panic (cands c d n) v) as Np.
  destruct (first_convert _ v) as [[[k b]|]|cl|w] eqn:F; [now constructor| |now apply (BV_internal _ _ _ _ _ cl)|discriminate].
  destruct (u_strict c) eqn:Hs; now constructor.
Qed.

Lemma bind_field_typed c d kind n v k b : bind_field c d kind n v = FTyped k b ->
  k_name (uk_key k) = n /\ In k (ud_keys d ++ u_custom c) /\ try_convert (uk_ty k) v = Ok (Some b).
Proof.
  intros E. apply bind_field_inv in E. inversion E as [|? ? _ F| | |]; subst.
  apply first_convert_ok in F as [Hin Hc]. unfold cands in Hin. rewrite in_app_iff, !named_In in Hin.
  rewrite in_app_iff. tauto.
Qed.

Lemma collect_typed {rs ty un fl pn} k b :
  collect_fields rs = (ty, un, fl, pn) -> (In (k, b) ty <-> exists n, In (n, FTyped k b) rs).
Proof.
  revert ty un fl pn. induction rs as [|[n r] rest IH]; cbn; intros ty un fl pn E.
  - inversion E. split; [intros []|intros [? []]].
  - destruct (collect_fields rest) as [[[ty0 un0] fl0] pn0]. specialize (IH _ _ _ _ eq_refl).
    destruct r; inversion E; subst; cbn; rewrite ?IH; split; try (intros [n0 H]; exists n0; now right);
      try (intros [n0 [H|H]]; [discriminate|now exists n0]).
    + intros [H|[n0 H]]; [inversion H; exists n; now left|exists n0; now right].
    + intros [n0 [H|H]]; [left; now inversion H|right; now exists n0].
Qed.

Lemma collect_unknown {rs ty un fl pn} n v :
  collect_fields rs = (ty, un, fl, pn) -> (In (n, v) un <-> In (n, FUnknown v) rs).
Proof.
  revert ty un fl pn. induction rs as [|[n0 r] rest IH]; cbn; intros ty un fl pn E; [inversion E; tauto|].
  destruct (collect_fields rest) as [[[ty0 un0] fl0] pn0]. specialize (IH _ _ _ _ eq_refl).
  destruct r; inversion E; subst; cbn; rewrite ?IH; split; try (intros H; now right); try (intros [H|H]; [discriminate|exact H]).
  - intros [H|H]; [left; now inversion H|now right].
  - intros [H|H]; [left; now inversion H|now right].
Qed.

Lemma collect_fails {rs ty un fl pn} f :
  collect_fields rs = (ty, un, fl, pn) -> (In f fl <-> exists n, In (n, FFail f) rs).
Proof.
  revert ty un fl pn. induction rs as [|[n r] rest IH]; cbn; intros ty un fl pn E.
  - inversion E. split; [intros []|intros [? []]].
  - destruct (collect_fields rest) as [[[ty0 un0] fl0] pn0]. specialize (IH _ _ _ _ eq_refl).
    destruct r; inversion E; subst; cbn; rewrite ?IH; split; try (intros [n0 H]; exists n0; now right);
      try (intros [n0 [H|H]]; [discriminate|now exists n0]).
    + intros [H|[n0 H]]; [subst; exists n; now left|exists n0; now right].
    + intros [n0 [H|H]]; [left; now inversion H|right; now exists n0].
Qed.

Lemma collect_no_panic rs : (forall n w, ~ In (n, FPanic w) rs) -> exists ty un fl, collect_fields rs = (ty, un, fl, None).
Proof.
  induction rs as [|[n r] rest IH]; intros H; cbn; [now exists [], [], []|].
  destruct IH as (ty & un & fl & ->); [intros n0 w Hin; exact (H n0 w (or_intror Hin))|].
  destruct r; eauto. destruct (H n what). now left.
Qed.

Definition cause_model (c : ucfg) (o : option dd) : ures rcause :=
  match o with Some d => unmarshal_cause c d | None => UFail [internal_failure] end.
Definition causes_model (c : ucfg) (cs : list (option dd)) : ures (list rcause) := seq_causes (map (cause_model c) cs).

Definition bound_fields (c : ucfg) (def : udef) (k : string) (fs : list (string * dval)) : list (string * fres) :=
  map (fun nv => (fst nv, bind_field c def k (fst nv) (snd nv))) (sort_fields fs).

(* unmarshal of a node, given the result for its causes *)
Definition node_err (c : ucfg) (m k : string) fs st (cres : ures (list rcause)) : ures rerr :=
  match resolve_kind_u c k with
  | UFail f => UFail f
  | UPanic w => UPanic w
  | UOk def =>
      let '(typed, unknown, fails, pn) := collect_fields (bound_fields c def k fs) in
      match pn, fails with
      | Some w, _ => UPanic w
      | None, f :: _ => UFail [f]
      | None, [] =>
          match cres with
          | UOk cs' => UOk (RErr def m typed unknown st cs')
          | UFail f => UFail f
          | UPanic w => UPanic w
          end
      end
  end.

(* unmarshalCause of a node, given unmarshal of it and the result for its causes *)
Definition node_cause (c : ucfg) (m t u : string) (as_err : ures rerr) (cres : ures (list rcause)) : ures rcause :=
  match as_err with
  | UOk e => UOk (RCErr e)
  | UPanic w => UPanic w
  | UFail fs =>
      if has_internal fs then UFail [internal_failure]
      else
        let m := if str_eqb m "" then u else m in
        let t := if str_eqb t "" then "<unknown>" else t in
        match cres with
        | UFail f => UFail f
        | UPanic w => UPanic w
        | UOk [] =>
            match (if str_eqb t definition_type_name then resolve_kind_def (u_defs c) m else None) with
            | Some rd => UOk (RCDef rd)
            | None => match lookup_sentinel c t m with Some id => UOk (RCSentinel id) | None => UOk (RCUnknown m t []) end
            end
        | UOk nested => UOk (RCUnknown m t nested)
        end
  end.

Lemma both_node c m k t fs st cs u :
  both c (DD m k t fs st cs u) =
  (node_err c m k fs st (causes_model c cs), node_cause c m t u (node_err c m k fs st (causes_model c cs)) (causes_model c cs)).
Proof.
  cbn [both].
  replace ((fix go (l : list (option dd)) : list (ures rcause) := _) cs) with (map (cause_model c) cs)
    by (induction cs as [|[x|] r IH]; cbn; [reflexivity|f_equal; exact IH..]).
  reflexivity.
Qed.

Lemma unmarshal_node c m k t fs st cs u : unmarshal c (DD m k t fs st cs u) = node_err c m k fs st (causes_model c cs).
Proof. unfold unmarshal. rewrite both_node. reflexivity. Qed.

Lemma unmarshal_cause_node c m k t fs st cs u :
  unmarshal_cause c (DD m k t fs st cs u) = node_cause c m t u (unmarshal c (DD m k t fs st cs u)) (causes_model c cs).
Proof. unfold unmarshal_cause, unmarshal. rewrite both_node. reflexivity. Qed.

Lemma bound_fields_in c def k fs n r :
  In (n, r) (bound_fields c def k fs) <-> exists v, In (n, v) fs /\ r = bind_field c def k n v.
Proof.
  unfold bound_fields. rewrite in_map_iff. split.
  - intros [[n0 v] [E Hin]]. inversion E; subst. exists v. now rewrite <- (sort_fields_in fs).
  - intros [v [Hin ->]]. exists (n, v). now rewrite sort_fields_in.
Qed.

(* binding never panics: the fourth component is None *)
Lemma fields_collected c def k fs : exists ty un fl, collect_fields (bound_fields c def k fs) = (ty, un, fl, None).
Proof.
  apply collect_no_panic. intros n w Hin. apply bound_fields_in in Hin as [v [_ E]].
  symmetry in E. apply bind_field_inv in E. inversion E.
Qed.

Definition fails_sat {A} (Q : list failure -> Prop) (r : ures A) : Prop :=
  match r with UOk _ => True | UFail fs => Q fs | UPanic _ => False end.

Lemma fails_sat_impl {A} (Q Q' : list failure -> Prop) (r : ures A) :
  (forall fs, Q fs -> Q' fs) -> fails_sat Q r -> fails_sat Q' r.
Proof. intros H. destruct r; cbn; auto. Qed.

Lemma seq_causes_sat Q rs : Forall (fails_sat Q) rs -> fails_sat Q (seq_causes rs).
Proof.
  induction 1 as [|r rest Hr _ IH]; cbn; [exact I|].
  destruct r; cbn in *; try assumption. destruct (seq_causes rest); assumption.
Qed.

(* [UFail] carries a list, but unmarshal only ever returns one failure (the first failing field in name order, or
   the first failing cause): results are described by what their single failure satisfies. *)
Definition one_of (P : failure -> Prop) (fs : list failure) : Prop := exists f, fs = [f] /\ P f.
Definition internal_only (fs : list failure) : Prop := fs = [internal_failure].

Lemma unmarshal_ok_inv c m k t fs st cs u e :
  unmarshal c (DD m k t fs st cs u) = UOk e <->
  exists def cs' ty un, resolve_kind_u c k = UOk def /\ causes_model c cs = UOk cs' /\
    collect_fields (bound_fields c def k fs) = (ty, un, [], None) /\ e = RErr def m ty un st cs'.
Proof.
  rewrite unmarshal_node. unfold node_err. split.
  - destruct (resolve_kind_u c k) as [def|f|w]; try discriminate.
    destruct (fields_collected c def k fs) as (ty & un & [|f fl] & Fc); rewrite Fc; [|discriminate].
    destruct (causes_model c cs) as [cs'|f|w]; try discriminate.
    intros [= <-]. now exists def, cs', ty, un.
  - now intros (def & cs' & ty & un & -> & -> & -> & ->).
Qed.

(* The failure a node (k, fs) can report under c, with its reason: ErrUnknownKind exactly when the kind does not
   resolve; otherwise ErrInternal (a conversion error, or from the causes) or, in strict mode only,
   ErrUnknownField naming a field of the node. *)
Inductive node_fails (c : ucfg) (k : string) (fs : list (string * dval)) : failure -> Prop :=
| NF_kind : resolved_def c k = None -> node_fails c k fs (kind_failure k)
| NF_field def n v : resolved_def c k = Some def -> In (n, v) fs -> u_strict c = true -> node_fails c k fs (field_failure k n)
| NF_internal def : resolved_def c k = Some def -> node_fails c k fs internal_failure.

(* Unmarshal never panics and fails with exactly one failure; a node restored as a cause fails with
   ErrInternal only. *)
Theorem both_inv c d :
  fails_sat (one_of (node_fails c (dd_kind d) (dd_fields d))) (unmarshal c d) /\ fails_sat internal_only (unmarshal_cause c d).
Proof.
  induction d as [m k t fs st cs u IH] using dd_Forall_ind.
  assert (Hc : fails_sat internal_only (causes_model c cs)).
  { apply seq_causes_sat, Forall_map. eapply Forall_impl; [|exact IH]. intros [x|] Hx; [exact (proj2 Hx)|reflexivity]. }
  assert (He : fails_sat (one_of (node_fails c k fs)) (unmarshal c (DD m k t fs st cs u))).
  { rewrite unmarshal_node. unfold node_err. rewrite resolve_kind_u_spec.
    destruct (resolved_def c k) as [def|] eqn:R; [|exists (kind_failure k); split; [reflexivity|now constructor]].
    destruct (fields_collected c def k fs) as (ty & un & [|f rest] & Fc); rewrite Fc.
    - destruct (causes_model c cs); [exact I| |exact Hc]. rewrite Hc. exists internal_failure.
      split; [reflexivity|econstructor; eassumption].
    - exists f. split; [reflexivity|].
      destruct (proj1 (collect_fails f Fc) (or_introl eq_refl)) as [n Hin]. apply bound_fields_in in Hin as [v [Hin B]].
      symmetry in B. apply bind_field_inv in B. inversion B; econstructor; eassumption. }
  split; [exact He|]. rewrite unmarshal_cause_node. unfold node_cause.
  destruct (unmarshal c _) as [e|ffs|w]; [exact I| |exact He].
  destruct (has_internal ffs); [reflexivity|].
  destruct (causes_model c cs) as [[|c1 r1]|f'|w']; cbn in *; try assumption; try exact I.
  destruct (if str_eqb _ definition_type_name then _ else None); [exact I|].
  destruct (lookup_sentinel c _ _); exact I.
Qed.

Definition cause_inv c d : fails_sat internal_only (unmarshal_cause c d) := proj2 (both_inv c d).

Lemma unmarshal_fail_view c d ffs :
  unmarshal c d = UFail ffs -> exists f, ffs = [f] /\ node_fails c (dd_kind d) (dd_fields d) f.
Proof. intros E. pose proof (proj1 (both_inv c d)) as H. now rewrite E in H. Qed.

Lemma unknown_kind_iff c m k t fs st cs u :
  unmarshal c (DD m k t fs st cs u) = UFail [kind_failure k] <-> resolved_def c k = None.
Proof.
  split.
  - intros E. apply unmarshal_fail_view in E as (f & [= <-] & Hf). now inversion Hf.
  - intros R. rewrite unmarshal_node. unfold node_err. now rewrite resolve_kind_u_spec, R.
Qed.

(* Unmarshal: a nil DecodedData is ErrInternal *)
Lemma top_inv c od :
  fails_sat (one_of (fun f => match od with Some d => node_fails c (dd_kind d) (dd_fields d) f | None => f = internal_failure end))
            (unmarshal_top c od).
Proof. destruct od as [d|]; [apply both_inv|]. now exists internal_failure. Qed.

Lemma cause_of_err c d e : unmarshal c d = UOk e -> unmarshal_cause c d = UOk (RCErr e).
Proof. destruct d as [m k t fs st cs u]. intros E. rewrite unmarshal_cause_node, E. reflexivity. Qed.
