(* Facts about the program DSL (Model/Prog.v), the factories it builds (Model/Core.v) and errors.Is's traversal
   (Model/GoErrors.v) that the proofs of several properties share: derived factories through with_options,
   Join's case analysis, the view of one statement (step_cases), induction over programs. *)
From Errdef Require Import Base.Str Base.ListFacts Model.Core Model.GoErrors Model.Prog.
From Errdef Require Check.C02.

Lemma key_eqb_refl k : key_eqb k k = true.
Proof. apply N.eqb_refl. Qed.

Lemma apply_opts_app (d : defn) a b : apply_opts d (a ++ b) = apply_opts (apply_opts d a) b.
Proof. apply fold_left_app. Qed.

(* so facts about derived factories are proved for with_options only *)
Lemma with_as_opts a d c os : with_ a d c os = with_options a d (c ++ os).
Proof. destruct c, os; cbn [with_ app]; rewrite <- ?apply_opts_app, ?app_nil_r; reflexivity. Qed.

Lemma apply_opt_ids d o :
  d_addr (apply_opt d o) = d_addr d /\ d_root (apply_opt d o) = d_root d /\ d_org (apply_opt d o) = d_org d.
Proof. destruct o; cbn; auto. Qed.

Lemma apply_opts_ids os : forall d,
  d_addr (apply_opts d os) = d_addr d /\ d_root (apply_opts d os) = d_root d /\ d_org (apply_opts d os) = d_org d.
Proof.
  unfold apply_opts. induction os as [|o r IH]; intros d; cbn; [auto|].
  destruct (IH (apply_opt d o)) as (A & B & C), (apply_opt_ids d o) as (A' & B' & C').
  repeat split; congruence.
Qed.

Lemma define_as_opts a org kind os : define a org kind os = apply_opts (define a org kind []) os.
Proof. reflexivity. Qed.

Lemma define_ids a org kind os :
  d_addr (define a org kind os) = a /\ d_root (define a org kind os) = None /\ d_org (define a org kind os) = org.
Proof. exact (apply_opts_ids os _). Qed.

Lemma with_options_ids a d os :
  with_options a d os = d \/
  d_addr (with_options a d os) = a /\ root (with_options a d os) = root d /\ d_org (with_options a d os) = d_org d.
Proof.
  destruct os as [|o r]; [now left|right]. unfold with_options, root.
  destruct (apply_opts_ids (o :: r) (clone a d)) as (-> & -> & ->). auto.
Qed.

Lemma in_somes {A} (x : A) l : In x (somes l) <-> In (Some x) l.
Proof.
  induction l as [|[y|] r IH]; cbn; rewrite ?IH; [tauto| |].
  - split; intros [E|E]; auto; left; [now f_equal|now injection E].
  - split; [auto|intros [E|E]; [discriminate|exact E]].
Qed.

Lemma somes_nil_iff {A} (l : list (option A)) : somes l = [] <-> forall x, In x l -> x = None.
Proof.
  induction l as [|[y|] r IH]; cbn; split; intros H; try reflexivity; try discriminate.
  - intros x [].
  - exfalso. specialize (H (Some y) (or_introl eq_refl)). discriminate.
  - intros x [<-|Hin]; [reflexivity|]. now apply IH.
  - apply IH. intros x Hin. apply H. now right.
Qed.

Lemma flat_map_somes {A B} (f : A -> list B) l :
  flat_map (fun o => match o with Some x => f x | None => [] end) l = flat_map f (somes l).
Proof. induction l as [|[x|] r IH]; cbn; congruence. Qed.

Lemma get_err_in s o e : get_err s o = Some e -> In (Some e) (s_errs s).
Proof.
  destruct o as [i|]; [|discriminate]. cbn. intros H.
  destruct (Nat.lt_ge_cases i (List.length (s_errs s))) as [L|L].
  - rewrite <- H. now apply nth_In.
  - rewrite nth_overflow in H by exact L. discriminate.
Qed.

Lemma get_def_in s f : Nat.ltb f (List.length (s_defs s)) = true -> In (get_def s f) (s_defs s).
Proof. intros H. apply Nat.ltb_lt in H. now apply nth_In. Qed.

Lemma somes_get_in s cs e : In e (somes (map (get_err s) cs)) -> In (Some e) (s_errs s).
Proof. intros H. apply in_somes, in_map_iff in H as (o & G & _). eapply get_err_in; eauto. Qed.

Lemma reach_head e : In e (reach e).
Proof. destruct e; now left. Qed.

Lemma same_refl e : same e e = true.
Proof. unfold same. rewrite N.eqb_refl. destruct (is_defn_val e); reflexivity. Qed.

Lemma errors_is_self e : errors_is e e = true.
Proof. unfold errors_is. apply existsb_exists. exists e. split; [apply reach_head|]. now rewrite same_refl. Qed.

Lemma errors_is_mono c r t : incl (reach c) (reach r) -> errors_is c t = true -> errors_is r t = true.
Proof.
  unfold errors_is. intros H E. apply existsb_exists in E as [n [Hin Hp]].
  apply existsb_exists. exists n. split; [now apply H|exact Hp].
Qed.

Lemma as_first_mono p c r : incl (reach c) (reach r) -> as_first p c <> None -> as_first p r <> None.
Proof.
  unfold as_first. intros H E. destruct (find p (reach c)) as [n|] eqn:F; [|congruence].
  apply find_some in F as [Hin Hp]. intros N. eapply find_none in N; [|apply H; exact Hin]. congruence.
Qed.

Lemma reach_cause a d m c stk : incl (reach c) (reach (EDef a d m (Some c) false stk)).
Proof. intros n Hin. now right. Qed.

Lemma reach_joined a a' d m es stk c : In c es -> incl (reach c) (reach (EDef a d m (Some (EJoin a' es)) true stk)).
Proof. intros Hc n Hin. right. apply in_flat_map. now exists c. Qed.

(* the syntactic children of a node; errors.Is visits the node and what it reaches from them *)
Definition kids (e : err) : list err :=
  match e with
  | EDef _ _ _ c _ _ | ESingle _ _ c | EPanic _ _ _ c => match c with Some x => [x] | None => [] end
  | EJoin _ es | ERest _ _ _ _ _ es | EUnk _ _ _ es => es
  | EWrapF _ _ c => [c]
  | EMulti _ _ cs => somes cs
  | _ => []
  end.

Lemma reach_incl e : incl (reach e) (e :: flat_map reach (kids e)).
Proof.
  destruct e as [a d m [c|] j stk| | | |a m [c|]| | |a m i [c|]| |]; cbn [reach kids flat_map];
    rewrite ?flat_map_somes, ?app_nil_r; try apply incl_refl.
  destruct (j && is_multi c); [|apply incl_refl].
  intros n [<-|H]; [now left|right]. destruct (reach c); [contradiction|now right].
Qed.

(* Join and errors.Join: the one place where the number of non-nil arguments is analysed *)
Lemma c_join_spec a d cs stk :
  match c_join a d cs stk with
  | None => somes cs = []
  | Some e => somes cs <> [] /\ def_unwrap e = somes cs /\ err_msg e = join nl (map err_msg (somes cs)) /\
              (forall c, In c (somes cs) -> incl (reach c) (reach e)) /\
              exists cause j, e = new_error (a + 1) d (Some cause) (err_msg cause) j stk /\
                              (In cause (somes cs) \/ cause = EJoin a (somes cs))
  end.
Proof.
  unfold c_join. destruct (somes cs) as [|c1 [|c2 r]]; [reflexivity| |]; (split; [discriminate|]); repeat split.
  - intros c [<-|[]]. apply reach_cause.
  - eexists _, _. split; [reflexivity|left; now left].
  - intros c. apply reach_joined.
  - eexists _, _. split; [reflexivity|now right].
Qed.

Lemma errors_join_spec a cs :
  match errors_join a cs with
  | None => somes cs = []
  | Some e => In e (somes cs) \/ e = EJoin a (somes cs)
  end.
Proof.
  unfold errors_join. destruct (somes cs) as [|c1 [|c2 r]]; [reflexivity| |now right].
  destruct (is_multi c1); [left; now left|now right].
Qed.

(* Where the error a statement appends comes from.  [made s ok e]: e is put together from earlier pool members by the err constructors, and every definition
   it mentions at a new node is in the pool provided [ok] (the statement is well-formed). *)
Inductive made (s : st) (ok : Prop) : err -> Prop :=
| made_old e : In (Some e) (s_errs s) -> made s ok e
| made_inner e : made s ok e -> made s ok (inner_panic e)
| made_node e :
    match e with EDef _ d _ _ _ _ | EDefn d | ERest _ d _ _ _ _ => ok -> In d (s_defs s) | _ => True end ->
    (forall c, In c (kids e) -> made s ok c) -> made s ok e.

Lemma made_new_error s (ok : Prop) a d cause m j stk :
  (ok -> In d (s_defs s)) -> (forall c, cause = Some c -> made s ok c) -> made s ok (new_error a d cause m j stk).
Proof. intros Hd Hc. apply made_node; [exact Hd|]. destruct cause; intros c []; subst; auto. contradiction. Qed.

Lemma made_leaf s (ok : Prop) a m t : made s ok (ELeaf a m t).
Proof. apply made_node; [exact I|intros c []]. Qed.

Lemma made_join s (ok : Prop) a es : (forall c, In c es -> In (Some c) (s_errs s)) -> made s ok (EJoin a es).
Proof. intros H. apply made_node; [exact I|]. intros c Hc. now apply made_old, H. Qed.

Lemma made_recovered s (ok : Prop) a d v stk :
  (ok -> In d (s_defs s)) -> match v with PVErr e => made s ok e | PVOther _ _ => True end ->
  made s ok (recovered a d v stk).
Proof.
  intros Hd Hv. apply made_new_error; [exact Hd|]. intros c [= <-].
  destruct v; apply made_node; try exact I; [intros c [<-|[]]; exact Hv|intros c []].
Qed.

(* A callback: the address counter only grows; an error it panics with or returns is [made]; one it RETURNS is
   moreover an earlier pool entry or was allocated by the callback (a Recover inside it). *)
Lemma eval_cb_spec s (ok : Prop) c :
  (ok -> cb_ok (List.length (s_defs s)) (List.length (s_errs s)) c = true) ->
  forall n r n', eval_cb s c n = (r, n') ->
  (n <= n')%N /\
  match r with
  | Normal (Some e) => made s ok e /\ (In (Some e) (s_errs s) \/ (n <= addr_of e < n')%N)
  | Panicking (PVErr e) => made s ok e
  | _ => True
  end.
Proof.
  induction c as [e|e|e|id f|m t|c IH|f c IH stk|f c1 IH1 stk c2 IH2]; intros Hok n r n' E; cbn [eval_cb cb_ok] in *.
  - (* return errs[e] *)
    injection E as <- <-. split; [lia|]. destruct (get_err s e) eqn:G; [|exact I].
    apply get_err_in in G. split; [now apply made_old|now left].
  - (* panic(errs[e]) *)
    destruct (get_err s (Some e)) eqn:G; injection E as <- <-; (split; [lia|]);
      [eapply made_old, get_err_in, G|apply made_leaf].
  - (* panic(the PanicError inside errs[e]) *)
    destruct (get_err s (Some e)) eqn:G; injection E as <- <-; (split; [lia|]);
      [eapply made_inner, made_old, get_err_in, G|apply made_leaf].
  - injection E as <- <-. split; [lia|exact I].
  - injection E as <- <-. split; [lia|apply made_leaf].
  - now apply IH.
  - (* Recover around c: a panic of c becomes a returned error at n0+1 *)
    assert (Hf : ok -> In (get_def s f) (s_defs s))
      by (intros H; apply Hok, andb_true_iff in H as [H _]; now apply get_def_in).
    destruct (eval_cb s c n) as [[r0|v] n0] eqn:E0;
      destruct (IH (fun H => proj2 (proj1 (andb_true_iff _ _) (Hok H))) n _ _ E0) as [M B]; injection E as <- <-.
    + now split.
    + split; [lia|]. split; [apply made_recovered; [exact Hf|now destruct v]|right; cbn; lia].
  - (* c1's outcome is dropped, c2 runs from the counter c1 left *)
    assert (H1 : ok -> cb_ok (List.length (s_defs s)) (List.length (s_errs s)) c1 = true)
      by (intros H; apply Hok, andb_true_iff in H as [H _]; now apply andb_true_iff in H as [_ H]).
    assert (H2 : ok -> cb_ok (List.length (s_defs s)) (List.length (s_errs s)) c2 = true)
      by (intros H; now apply Hok, andb_true_iff in H as [_ H]).
    destruct (eval_cb s c1 n) as [[r1|v1] n1] eqn:E1; destruct (IH1 H1 n _ _ E1) as [M1 _];
      destruct (IH2 H2 _ _ _ E) as [M2 B]; (split; [lia|]);
      destruct r as [[e|]|[e|]]; trivial; destruct B as [Hm [B|B]]; (split; [exact Hm|]); auto; right; lia.
Qed.

Lemma eval_cb_mono s c n r n' : eval_cb s c n = (r, n') -> (n <= n')%N.
Proof. intros E. now destruct (eval_cb_spec s False c (fun F => match F with end) n r n' E). Qed.

(* an appended error sits at an address the statement allocates, unless it is an earlier pool entry or a
   definition used as an error (SDefAsErr) *)
Definition old_or_fresh (s : st) (used : N) (e : err) : Prop :=
  In (Some e) (s_errs s) \/ is_defn_val e = true \/ (s_next s <= addr_of e < s_next s + used)%N.

(* Every statement appends ONE object to ONE pool.  The four statements that make a factory or a context are
   told apart; of one that makes an error the view says where the error comes from and where it sits. *)
Inductive step_view (s : st) : stmt -> st -> Prop :=
| SVdefine kind os : step_view s (SDefine kind os) (add_def s (define (s_next s) (s_norg s) kind os) 1 true)
| SVctx parent os : step_view s (SCtx parent os) (add_ctx s (get_ctx s parent ++ os))
| SVwith d ctx os : (st_ok s (SWith d ctx os) = true -> In (get_def s d) (s_defs s)) ->
    step_view s (SWith d ctx os) (add_def s (with_options (s_next s) (get_def s d) (get_ctx s ctx ++ os)) 1 false)
| SVwith_options d os : (st_ok s (SWithOptions d os) = true -> In (get_def s d) (s_defs s)) ->
    step_view s (SWithOptions d os) (add_def s (with_options (s_next s) (get_def s d) os) 1 false)
| SVerr x oe used : C02.makes_err x = true ->
    (forall e, oe = Some e -> made s (st_ok s x = true) e /\ old_or_fresh s used e) ->
    step_view s x (add_err s oe used).

Lemma step_cases s x : step_view s x (step s x).
Proof.
  assert (D : forall f b, Nat.ltb f (List.length (s_defs s)) && b = true -> In (get_def s f) (s_defs s))
    by (intros f b H; apply andb_true_iff in H as [H _]; now apply get_def_in).
  assert (F : forall a e u, addr_of e = a -> (s_next s <= a < s_next s + u)%N -> old_or_fresh s u e)
    by (intros a e u <- H; right; right; exact H).
  assert (P : forall o e, get_err s o = Some e -> made s (st_ok s x = true) e)
    by (intros o e G; eapply made_old, get_err_in, G).
  destruct x as [kind os|parent os|d ctx os|d os|f msg stk|f fmt nargs ref stk|f c stk|f c ref stk|f cs stk|f c stk
                |msg c|cs|msg c|msg cs|msg ty|d]; cbn [step].
  - (* SDefine *) constructor.
  - (* SCtx *) replace (match os with [] => _ | _ => _ end) with (get_ctx s parent ++ os); [constructor|].
    destruct os; [apply app_nil_r|reflexivity].
  - (* SWith *) rewrite with_as_opts. constructor. exact (D _ _).
  - (* SWithOptions *) constructor. exact (get_def_in s _).
  - (* SNew *) apply SVerr; [reflexivity|]. intros e [= <-]. split; [|apply (F (s_next s)); [reflexivity|lia]].
    apply made_new_error; [exact (get_def_in s _)|discriminate].
  - (* SErrorf *) apply SVerr; [reflexivity|]. intros e [= <-]. split; [|apply (F (s_next s)); [reflexivity|lia]].
    apply made_new_error; [exact (get_def_in s _)|discriminate].
  - (* SWrap *) apply SVerr; [reflexivity|]. unfold c_wrap. intros e E. destruct (get_err s c) eqn:G; [|discriminate].
    injection E as <-. split; [|apply (F (s_next s)); [reflexivity|lia]].
    apply made_new_error; [exact (D _ _)|]. intros ? [= <-]. eapply P, G.
  - (* SWrapf *) apply SVerr; [reflexivity|]. unfold c_wrapf. intros e E. destruct (get_err s c) eqn:G; [|discriminate].
    injection E as <-. split; [|apply (F (s_next s)); [reflexivity|lia]].
    apply made_new_error; [exact (D _ _)|]. intros ? [= <-]. eapply P, G.
  - (* SJoin *) apply SVerr; [reflexivity|]. intros e E. pose proof (c_join_spec (s_next s) (get_def s f) (map (get_err s) cs) stk) as J.
    rewrite E in J. destruct J as (_ & _ & _ & _ & cause & j & -> & Hc). split; [|apply (F (s_next s + 1)%N); [reflexivity|lia]].
    apply made_new_error; [exact (D _ _)|]. intros ? [= <-].
    destruct Hc as [Hc| ->]; [eapply made_old, somes_get_in, Hc|apply made_join, somes_get_in].
  - (* SRecover *) unfold c_recover. destruct (eval_cb s c (s_next s)) as [[r|v] n] eqn:E.
    all: destruct (eval_cb_spec s (st_ok s (SRecover f c stk) = true) c (fun H => proj2 (andb_prop _ _ H)) _ _ _ E) as [M B].
    all: apply SVerr; [reflexivity|]; intros e Ee.
    + subst r. destruct B as [Hm [B|B]]; (split; [exact Hm|]); [now left|right; right; lia].
    + injection Ee as <-. split; [apply made_recovered; [exact (D _ _)|now destruct v]|apply (F (n + 1)%N); [reflexivity|lia]].
  - (* SFmtErrorf *) destruct (get_err s (Some c)) eqn:G; apply SVerr; try reflexivity; intros ? [= <-];
      (split; [|apply (F (s_next s)); [reflexivity|lia]]); [|apply made_leaf].
    apply made_node; [exact I|]. intros ? [<-|[]]. eapply P, G.
  - (* SErrorsJoin *) apply SVerr; [reflexivity|]. intros e E. pose proof (errors_join_spec (s_next s) (map (get_err s) cs)) as J.
    rewrite E in J. destruct J as [J| ->].
    + apply somes_get_in in J. split; [now apply made_old|now left].
    + split; [apply made_join, somes_get_in|apply (F (s_next s)); [reflexivity|lia]].
  - (* SSingle *) apply SVerr; [reflexivity|]. intros e [= <-]. split; [|apply (F (s_next s)); [reflexivity|lia]].
    apply made_node; [exact I|]. cbn [kids]. destruct (get_err s c) eqn:G; intros ? []; subst; [eapply P, G|contradiction].
  - (* SMulti *) apply SVerr; [reflexivity|]. intros e [= <-]. split; [|apply (F (s_next s)); [reflexivity|lia]].
    apply made_node; [exact I|]. intros ? Hc. eapply made_old, somes_get_in, Hc.
  - (* SLeaf *) apply SVerr; [reflexivity|]. intros e [= <-]. split; [apply made_leaf|apply (F (s_next s)); [reflexivity|lia]].
  - (* SDefAsErr *) apply SVerr; [reflexivity|]. intros e [= <-]. split; [|right; now left].
    apply made_node; [exact (get_def_in s _)|intros ? []].
Qed.

Lemma steps_ind (P : st -> Prop) : (forall s x, P s -> P (step s x)) -> forall p s, P s -> P (fold_left step p s).
Proof. exact (fold_left_inv step P). Qed.

Lemma run_snoc p x : run (p ++ [x]) = step (run p) x.
Proof. unfold run. now rewrite fold_left_app. Qed.

Lemma prog_ok_from_app p q : forall s,
  prog_ok_from s (p ++ q) = prog_ok_from s p && prog_ok_from (fold_left step p s) q.
Proof. induction p as [|x r IH]; intros s; cbn; [reflexivity|]. now rewrite IH, andb_assoc. Qed.

Lemma prog_ind (P : list stmt -> Prop) :
  P [] -> (forall p x, prog_ok p = true -> st_ok (run p) x = true -> P p -> P (p ++ [x])) ->
  forall p, prog_ok p = true -> P p.
Proof.
  intros H0 Hs p. induction p as [|x p IH] using rev_ind; intros Hok; [exact H0|].
  unfold prog_ok in Hok. rewrite prog_ok_from_app in Hok. cbn in Hok. rewrite andb_true_r in Hok.
  apply andb_true_iff in Hok as [Hp Hx]. now apply Hs; [| |apply IH].
Qed.

Lemma run_ind (P : st -> Prop) :
  P st0 -> (forall s x, P s -> st_ok s x = true -> P (step s x)) -> forall p, prog_ok p = true -> P (run p).
Proof.
  intros H0 Hs. apply (prog_ind (fun p => P (run p))); [exact H0|].
  intros p x _ Hx Hp. rewrite run_snoc. now apply Hs.
Qed.
