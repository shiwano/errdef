(* C11.  First Model/Convert.v: conv_f64 and conv_i64 equal their hand-written references, and from
   that what each conversion accepts and yields (integer kinds through [int_value] and the kind
   table, float32 through Flocq's rounding), then try_convert on scalar sources.  Second, the
   integer arithmetic of the oracle in Check/C11.v (decode, nearest_mag, fits, mag_le) is Flocq's.
   Last, [corr_implies_ok]: on a well-formed case the model's outcome passes the oracle's test. *)
From Coq Require Import Reals Lra Eqdep_dec.
From Flocq Require Import Core IEEE754.BinarySingleNaN.
From Errdef Require Import Base.Str Base.Outcome Model.Convert.
From Errdef Require Import Check.C11 Proofs.FloatFacts.
Local Open Scope Z_scope.

(* math.Modf's test together with the conversion *)
Definition int_value {p e} (f : binary_float p e) : option Z :=
  if is_integral f then Some (to_Z f) else None.

Lemma int_value_spec {p e} (f : binary_float p e) z :
  int_value f = Some z <-> is_finite f = true /\ B2R f = IZR z.
Proof.
  destruct f as [s|s| |s m ex He]; unfold int_value; cbn [is_integral is_finite B2R to_Z].
  - split; [intros [= <-]; now split|intros [_ H]; apply (eq_IZR 0) in H; now subst].
  - split; [discriminate|intros [H _]; discriminate].
  - split; [discriminate|intros [H _]; discriminate].
  - set (M := SpecFloat.cond_Zopp s (Zpos m)).
    assert (Hs : forall a, (if s then - a else a) = z <-> a = if s then - z else z) by (destruct s; lia).
    unfold F2R. cbn [Fnum Fexp]. destruct (Z.leb_spec 0 ex) as [Hle|Hlt]; cbn [orb].
    + replace (if s then - (Zpos m * 2 ^ ex) else Zpos m * 2 ^ ex) with (M * 2 ^ ex)
        by (unfold M; destruct s; cbn [SpecFloat.cond_Zopp]; lia).
      rewrite bpow_IZR, <- mult_IZR by exact Hle.
      split; [intros [= <-]; now split|intros [_ H]; apply eq_IZR in H; now f_equal].
    + (* the value times P = 2^(-ex) is M; m = q P says that P divides m with quotient q *)
      set (P := 2 ^ (- ex)). assert (HP : 0 < P) by (apply Z.pow_pos_nonneg; lia).
      assert (HR : IZR P <> 0%R) by (apply IZR_neq; lia).
      assert (Hv : (IZR M * bpow radix2 ex = IZR z)%R <-> M = z * P).
      { replace ex with (- (- ex)) at 1 by lia. rewrite bpow_opp, bpow_IZR by lia. fold P. split.
        - intros H. apply eq_IZR. rewrite mult_IZR, <- H. field. exact HR.
        - intros ->. rewrite mult_IZR. field. exact HR. }
      assert (HM : M = z * P <-> Zpos m = (if s then - z else z) * P)
        by (unfold M; destruct s; cbn [SpecFloat.cond_Zopp]; lia).
      rewrite Hv, HM, <- (exact_div _ _ _ HP), <- Hs.
      destruct (Z.eqb_spec (Zpos m mod P) 0) as [E|E].
      * split; [intros [= H]; auto|intros [_ [_ H]]; now f_equal].
      * split; [discriminate|intros [_ [H _]]; contradiction].
Qed.

Lemma int_value_some {p e} (f : binary_float p e) z : int_value f = Some z -> to_Z f = z.
Proof. unfold int_value. destruct (is_integral f); [now intros [= ->]|discriminate]. Qed.

Lemma c_eval c z : is_integral (f64c c) = true -> to_Z (f64c c) = z -> B2R (f64c c) = IZR z.
Proof. intros H1 H2. apply int_value_spec. unfold int_value. now rewrite H1, H2. Qed.

Lemma c_fin c : is_integral (f64c c) = true -> is_finite (f64c c) = true.
Proof. intros H. apply (int_value_spec _ (to_Z (f64c c))). unfold int_value. now rewrite H. Qed.

(* conv_f64 / conv_i64 interpret the clause tables srcgen extracts from converter.go on every run
   (Gen/Bounds.v); conv_f64_ref / conv_i64_ref are hand-written transcriptions, and every theorem
   below is proved about them.  These two lemmas are where a change of a range constant, a comparison
   operator, the order of the guards or the conversion operand in the SOURCE breaks the proofs.
   Per kind the generated guard list evaluates to the comparisons the reference writes out; the
   generated bounds are integer literals where the reference has [two63 - 1] etc., hence the
   evaluation of [a - 1] before [congruence]. *)
Lemma conv_f64_is_ref k b : conv_f64 k b = conv_f64_ref k b.
Proof.
  destruct k; try reflexivity; unfold conv_f64, conv_f64_ref;
  cbn -[f64_of_bits is_integral to_Z Bltb f64c f64_to_int_amd64 Babs f64_to_f32 bits_of_f32];
  repeat match goal with |- context [if ?c then _ else _] => destruct c; cbn [orb negb] end; reflexivity.
Qed.
Lemma conv_i64_is_ref k z : conv_i64 k z = conv_i64_ref k z.
Proof.
  destruct k; try reflexivity; unfold conv_i64, conv_i64_ref;
  cbn -[Z.ltb Z.gtb Z.eqb Z.modulo f32_to_i64_amd64 i64_to_f32 bits_of_f32 bits_of_f64 i64_to_f64 two64];
  try (destruct (z <? 0) eqn:?; cbn [orb negb]; [reflexivity|]);
  repeat match goal with |- context [if ?c then _ else _] => destruct c eqn:?; cbn [orb negb] end; try reflexivity;
  repeat match goal with H : context [?a - 1] |- _ => let v := eval vm_compute in (a - 1) in change (a - 1) with v in H end;
  try congruence.
  all: cbn [negb] in *; congruence.
Qed.

(* K6: MaxInt64 / MaxUint64 converted to float64 round up to 2^63 / 2^64, so the code's range test
   lets one integer above the range of a 64-bit kind pass *)
Definition slack (k : skind) : Z := match k with KInt | KInt64 | KUint | KUint64 => 1 | _ => 0 end.

(* the ten integer kinds: h is half the number of values *)
Lemma int_kind_table k : is_int_kind k = true ->
  exists h, 0 < h <= two63 /\ 2 ^ kind_bits k = 2 * h /\ slack k = (if h =? two63 then 1 else 0) /\
    (is_signed k = true /\ int_min k = - h /\ int_max k = h - 1 \/
     is_signed k = false /\ is_unsigned k = true /\ int_min k = 0 /\ int_max k = 2 * h - 1).
Proof.
  intros Hk. exists (2 ^ (kind_bits k - 1)).
  destruct k; try discriminate Hk; repeat split; try discriminate; auto.
Qed.

Lemma slack_range k : 0 <= slack k <= 1.
Proof. destruct k; cbn; lia. Qed.

Lemma in_range_iff k z : in_range k z = true <-> int_min k <= z <= int_max k.
Proof. unfold in_range. rewrite andb_true_iff, !Z.leb_le. reflexivity. Qed.

Lemma Bltb_int {p e} (f g : binary_float p e) a b :
  int_value f = Some a -> int_value g = Some b -> Bltb f g = (a <? b).
Proof.
  intros [Ff Fv]%int_value_spec [Gf Gv]%int_value_spec.
  rewrite Bltb_correct, Fv, Gv by assumption. destruct (Z.ltb_spec a b).
  - apply Rlt_bool_true. now apply IZR_lt.
  - apply Rlt_bool_false. now apply IZR_le.
Qed.

Lemma c_bounds k : is_int_kind k = true ->
  int_value (f64c (int_min k)) = Some (int_min k) /\ int_value (f64c (int_max k)) = Some (int_max k + slack k).
Proof. intros Hk. destruct k; try discriminate Hk; split; vm_compute; reflexivity. Qed.

Lemma conv_f64_int k bits : is_int_kind k = true ->
  conv_f64 k bits =
  match int_value (f64_of_bits bits) with
  | Some z => if (int_min k <=? z) && (z <=? int_max k + slack k) then Some (SInt (f64_to_int_amd64 k z)) else None
  | None => None
  end.
Proof.
  intros Hk. rewrite conv_f64_is_ref. unfold conv_f64_ref. cbv zeta. set (f := f64_of_bits bits).
  destruct (c_bounds k Hk) as [Cmin Cmax].
  assert (Ev : is_integral f = true -> int_value f = Some (to_Z f)) by (unfold int_value; now intros ->).
  unfold int_value at 1.
  (* for the unsigned kinds the lower bound in the code is the literal 0 = int_min k *)
  destruct (int_kind_table k Hk) as (h & _ & _ & _ & [(-> & _)|(-> & -> & Hmin & _)]);
    [|rewrite Hmin in Cmin |- *]; (destruct (is_integral f); cbn [negb]; [specialize (Ev eq_refl)|reflexivity]);
    rewrite (Bltb_int _ _ _ _ Cmax Ev), (Bltb_int _ _ _ _ Ev Cmin), !Z.ltb_antisym;
    destruct (_ <=? to_Z f), (to_Z f <=? _); reflexivity.
Qed.

Lemma wrap_signed_small bits h z : 2 ^ bits = 2 * h -> - h <= z < h -> wrap_signed bits z = z.
Proof.
  intros Hm Hz. unfold wrap_signed. cbv zeta. rewrite Hm.
  replace (2 * h / 2) with h by (rewrite Z.mul_comm, Z.div_mul; lia).
  destruct (Z_lt_le_dec z 0) as [Hn|Hp].
  - rewrite <- (Z.mod_unique_pos z (2 * h) (-1) (z + 2 * h)) by lia. destruct (Z.ltb_spec (z + 2 * h) h); lia.
  - rewrite Z.mod_small by lia. destruct (Z.ltb_spec z h); lia.
Qed.

Lemma amd64_in_range k z : is_int_kind k = true ->
  int_min k <= z <= int_max k -> f64_to_int_amd64 k z = z.
Proof.
  intros (h & Hh & Hp & _ & [(Hs & Hmin & Hmax)|(Hs & _ & Hmin & Hmax)])%int_kind_table Hz;
    unfold f64_to_int_amd64; rewrite Hs, Z.geb_leb.
  - destruct (Z.leb_spec two63 z); [lia|]. destruct (Z.ltb_spec z (- two63)); [lia|].
    apply (wrap_signed_small _ h); [exact Hp|lia].
  - change two64 with (2 * two63). destruct (Z.leb_spec (2 * two63) z); [lia|].
    apply Z.mod_small. lia.
Qed.

Lemma conv_f64_int_iff k bits v : is_int_kind k = true ->
  (conv_f64 k bits = Some v <->
   exists z', is_finite (f64_of_bits bits) = true /\ B2R (f64_of_bits bits) = IZR z' /\
              int_min k <= z' <= int_max k + slack k /\ v = SInt (f64_to_int_amd64 k z')).
Proof.
  intros Hk. rewrite (conv_f64_int k bits Hk). split.
  - destruct (int_value _) as [z'|] eqn:E; [|discriminate]. apply int_value_spec in E as [Ff Fv].
    destruct (Z.leb_spec (int_min k) z'); [|discriminate].
    destruct (Z.leb_spec z' (int_max k + slack k)); [|discriminate]. intros [= <-]. exists z'. auto.
  - intros (z' & Ff & Fv & Hr & ->). rewrite (proj2 (int_value_spec _ z') (conj Ff Fv)).
    destruct (Z.leb_spec (int_min k) z'); [|lia]. destruct (Z.leb_spec z' (int_max k + slack k)); [|lia]. reflexivity.
Qed.

Lemma f64_to_int_exact_partial k bits z :
  is_int_kind k = true -> conv_f64 k bits = Some (SInt z) ->
  exists z', is_finite (f64_of_bits bits) = true /\ B2R (f64_of_bits bits) = IZR z' /\
             int_min k <= z' <= int_max k + slack k /\ (z' <= int_max k -> z = z').
Proof.
  intros Hk (z' & Ff & Fv & Hr & [= ->])%conv_f64_int_iff; [|exact Hk]. exists z'. repeat split; try assumption; try apply Hr.
  intros Hle. apply amd64_in_range; [exact Hk|lia].
Qed.

Lemma f64_to_int_complete k bits z' :
  is_int_kind k = true -> is_finite (f64_of_bits bits) = true -> B2R (f64_of_bits bits) = IZR z' ->
  int_min k <= z' <= int_max k -> conv_f64 k bits = Some (SInt z').
Proof.
  intros Hk Hf Hv Hr. apply conv_f64_int_iff; [exact Hk|]. exists z'. pose proof (slack_range k).
  rewrite amd64_in_range by assumption. repeat split; auto; lia.
Qed.

Lemma f64_to_int_declines k bits :
  is_int_kind k = true ->
  is_finite (f64_of_bits bits) = false \/
  (forall z, B2R (f64_of_bits bits) <> IZR z) \/
  (exists z, B2R (f64_of_bits bits) = IZR z /\ (z < int_min k \/ int_max k + slack k < z)) ->
  conv_f64 k bits = None.
Proof.
  intros Hk H. destruct (conv_f64 k bits) eqn:E; [exfalso|reflexivity].
  apply conv_f64_int_iff in E as (z' & Ff & Fv & Hr & _); [|exact Hk].
  destruct H as [H|[H|[z [Hv H]]]]; [congruence|elim (H _ Fv)|]. rewrite Fv in Hv. apply eq_IZR in Hv. lia.
Qed.

(* math.Copysign(0, -1): the sign bit alone *)
Definition neg_zero_bits64 : Z := 9223372036854775808.
Lemma f64_neg_zero k : is_int_kind k = true ->
  f64_of_bits neg_zero_bits64 = B754_zero true /\ conv_f64 k neg_zero_bits64 = Some (SInt 0).
Proof.
  intros Hk. assert (E : f64_of_bits neg_zero_bits64 = B754_zero true) by (vm_compute; reflexivity).
  split; [exact E|]. apply f64_to_int_complete; rewrite ?E; try reflexivity; [exact Hk|].
  destruct (int_kind_table k Hk) as (h & Hh & _ & _ & H); lia.
Qed.

Lemma f64_int64_boundary :
  (is_finite (f64_of_bits bits_two63) = true /\ B2R (f64_of_bits bits_two63) = IZR two63 /\
   conv_f64 KInt64 bits_two63 = Some (SInt (- two63)) /\ conv_f64 KInt bits_two63 = Some (SInt (- two63))) /\
  (is_finite (f64_of_bits bits_two64) = true /\ B2R (f64_of_bits bits_two64) = IZR two64 /\
   conv_f64 KUint64 bits_two64 = Some (SInt two63) /\ conv_f64 KUint bits_two64 = Some (SInt two63)).
Proof.
  destruct (proj1 (int_value_spec (f64_of_bits bits_two63) two63)) as [F1 V1]; [vm_compute; reflexivity|].
  destruct (proj1 (int_value_spec (f64_of_bits bits_two64) two64)) as [F2 V2]; [vm_compute; reflexivity|].
  repeat split; try assumption; vm_compute; reflexivity.
Qed.

Lemma f64_to_int_exact_refuted :
  ~ (forall k bits z, is_int_kind k = true -> conv_f64 k bits = Some (SInt z) ->
       B2R (f64_of_bits bits) = IZR z /\ int_min k <= z <= int_max k /\
       exists z', B2R (f64_of_bits bits) = IZR z' /\ z' <= int_max k).
Proof.
  intros H. destruct f64_int64_boundary as [[_ [Hv [Hc _]]] _].
  destruct (H KInt64 bits_two63 (- two63) eq_refl Hc) as [H1 _].
  rewrite Hv in H1. apply eq_IZR in H1. discriminate.
Qed.

Lemma two63_bpow : IZR two63 = bpow radix2 63.
Proof. rewrite bpow_IZR by lia. reflexivity. Qed.

Lemma conv_i64_int_spec k z : is_int_kind k = true ->
  conv_i64 k z = if in_range k z then Some (SInt z) else None.
Proof.
  intros Hk. rewrite conv_i64_is_ref. unfold conv_i64_ref, in_range. rewrite Z.gtb_ltb, !Z.ltb_antisym.
  destruct (int_kind_table k Hk) as (h & _ & _ & _ & [(-> & _)|(-> & -> & -> & _)]);
    destruct (_ <=? z), (z <=? _); reflexivity.
Qed.

Lemma i64_to_int_exact_complete k z z' : is_int_kind k = true ->
  (conv_i64 k z = Some (SInt z') <-> z' = z /\ int_min k <= z <= int_max k).
Proof.
  intros Hk. rewrite (conv_i64_int_spec k z Hk), <- in_range_iff.
  destruct (in_range k z); (split; [intros [= <-]; auto|intros [-> H]; now rewrite ?H]).
Qed.

Notation fexp32 := (FLT_exp (-149) 24).
Notation fexp64 := (FLT_exp (-1074) 53).
Definition max_float32_Z : Z := 340282346638528859811704183484516925440.   (* (2^24 - 1) 2^104 *)
Definition two128 : Z := 340282366920938463463374607431768211456.

Lemma i64_to_f32_correct z : Z.abs z <= two64 ->
  is_finite (i64_to_f32 z) = true /\ B2R (i64_to_f32 z) = round radix2 fexp32 ZnearestE (IZR z) /\
  Bsign (i64_to_f32 z) = (z <? 0).
Proof. now apply (int_to_float_correct 24 128). Qed.
Lemma i64_to_f64_correct z : Z.abs z <= two64 ->
  is_finite (i64_to_f64 z) = true /\ B2R (i64_to_f64 z) = round radix2 fexp64 ZnearestE (IZR z) /\
  Bsign (i64_to_f64 z) = (z <? 0).
Proof. now apply (int_to_float_correct 53 1024). Qed.

Lemma i64_to_f64_nearest z : - two63 <= z < two63 ->
  conv_i64 KFloat64 z = Some (SF64 (bits_of_f64 (i64_to_f64 z))) /\
  is_finite (i64_to_f64 z) = true /\
  B2R (i64_to_f64 z) = round radix2 fexp64 ZnearestE (IZR z).
Proof.
  intros Hz. split; [reflexivity|].
  destruct (i64_to_f64_correct z) as [H1 [H2 _]]; [change two64 with (2 * two63); lia|now split].
Qed.

Lemma max32_format : generic_format radix2 fexp32 (IZR max_float32_Z).
Proof.
  apply generic_format_FLT. exists (Float radix2 16777215 104).
  - unfold F2R. cbn [Fnum Fexp]. rewrite bpow_IZR by lia. rewrite <- mult_IZR. f_equal.
  - cbn. lia.
  - cbn. lia.
Qed.

Lemma f64_to_f32_correct (f : b64) : is_finite f = true -> (Rabs (B2R f) <= IZR max_float32_Z)%R ->
  is_finite (f64_to_f32 f) = true /\
  B2R (f64_to_f32 f) = round radix2 fexp32 ZnearestE (B2R f) /\
  Bsign (f64_to_f32 f) = Bsign f.
Proof.
  destruct f as [s| s | | s m e He]; try discriminate; intros _ Hle.
  - cbn. rewrite round_0; auto with typeclass_instances.
  - rewrite <- (F2R_B2R s m e He) in *.
    destruct (normalize_NE 24 128 eq_refl eq_refl (if s then Z.neg m else Z.pos m) e s _ max32_format)
      as (H1 & H2 & H3); [|exact Hle|].
    { rewrite bpow_IZR by lia. apply IZR_lt. reflexivity. }
    repeat split; [exact H1|exact H2|]. unfold f64_to_f32. rewrite H3. cbn [Bsign]. destruct s.
    + rewrite Rcompare_Lt; [reflexivity|]. apply F2R_lt_0. reflexivity.
    + rewrite Rcompare_Gt; [reflexivity|]. apply F2R_gt_0. reflexivity.
Qed.

(* math.Abs(f) > MaxFloat32 is false for NaN: NaN passes *)
Lemma conv_f64_f32_spec bits :
  let f := f64_of_bits bits in
  conv_f64 KFloat32 bits =
  if is_nan_f f || is_finite f && negb (Rlt_bool (IZR max_float32_Z) (Rabs (B2R f)))
  then Some (SF32 (bits_of_f32 (f64_to_f32 f))) else None.
Proof.
  cbv zeta. rewrite conv_f64_is_ref; unfold conv_f64_ref. cbn [is_signed is_unsigned].
  destruct (proj1 (int_value_spec (f64_of_bits max_float32_bits64) max_float32_Z)) as [Mf Mv]; [vm_compute; reflexivity|].
  set (mx := f64_of_bits max_float32_bits64) in *.
  destruct (f64_of_bits bits) as [s| s | | s m e He];
    [|destruct mx; try discriminate; reflexivity..|];
    (rewrite Bltb_correct, Mv, B2R_Babs by (try assumption; reflexivity); cbn [is_nan_f is_finite orb andb];
     destruct (Rlt_bool _ _); reflexivity).
Qed.

Lemma f64_to_f32_nearest bits :
  let f := f64_of_bits bits in
  (is_nan_f f = true -> conv_f64 KFloat32 bits = Some (SF32 nan32_bits)) /\
  (is_inf_f f = true -> conv_f64 KFloat32 bits = None) /\
  (is_finite f = true -> (IZR max_float32_Z < Rabs (B2R f))%R -> conv_f64 KFloat32 bits = None) /\
  (is_finite f = true -> (Rabs (B2R f) <= IZR max_float32_Z)%R ->
     exists g : b32, conv_f64 KFloat32 bits = Some (SF32 (bits_of_f32 g)) /\ is_finite g = true /\
       B2R g = round radix2 fexp32 ZnearestE (B2R f) /\ Bsign g = Bsign f).
Proof.
  cbv zeta. rewrite conv_f64_f32_spec. cbv zeta. set (f := f64_of_bits bits). repeat split.
  - destruct f; try discriminate; reflexivity.
  - destruct f; try discriminate; reflexivity.
  - intros Hf H. rewrite Hf, (Rlt_bool_true _ _ H). destruct f; try discriminate Hf; reflexivity.
  - intros Hf H. rewrite Hf, (Rlt_bool_false _ _ H), orb_true_r. exists (f64_to_f32 f).
    split; [reflexivity|now apply f64_to_f32_correct].
Qed.

Lemma conv_f64_shape k b v : conv_f64 k b = Some v ->
  match v with
  | SInt _ => is_int_kind k = true
  | SF32 x => k = KFloat32 /\ exists g, x = bits_of_f32 g
  | SF64 x => k = KFloat64 /\ x = b
  | _ => False
  end.
Proof.
  intros H. destruct (is_int_kind k) eqn:Hk.
  - rewrite (conv_f64_int k b Hk) in H. destruct (int_value _); [destruct (_ && _)|]; try discriminate H.
    now injection H as <-.
  - destruct k; try discriminate Hk; [rewrite conv_f64_is_ref in H; discriminate H..| |].
    + rewrite conv_f64_f32_spec in H. cbv zeta in H. destruct (_ || _); [|discriminate H]. injection H as <-. eauto.
    + rewrite conv_f64_is_ref in H. now injection H as <-.
Qed.

Lemma i64_to_f32_lossless z : - two63 <= z < two63 ->
  (generic_format radix2 fexp32 (IZR z) ->
     conv_i64 KFloat32 z = Some (SF32 (bits_of_f32 (i64_to_f32 z))) /\
     is_finite (i64_to_f32 z) = true /\ B2R (i64_to_f32 z) = IZR z) /\
  (~ generic_format radix2 fexp32 (IZR z) -> conv_i64 KFloat32 z = None).
Proof.
  intros Hz. destruct (i64_to_f32_correct z) as [Hf [Hv _]]; [change two64 with (2 * two63); lia|].
  rewrite conv_i64_is_ref; unfold conv_i64_ref. cbn [is_signed is_unsigned]. cbv zeta.
  set (g := i64_to_f32 z) in *. unfold f32_to_i64_amd64. split.
  - intros Hfmt. rewrite round_generic in Hv by auto with typeclass_instances.
    replace (to_Z g) with z by (symmetry; apply int_value_some, int_value_spec; now split).
    rewrite Z.geb_leb. destruct (Z.leb_spec two63 z); [lia|]. destruct (Z.ltb_spec z (- two63)); [lia|].
    cbn [orb]. rewrite Z.eqb_refl. auto.
  - (* the float32 is an integer N; if int64(N) = z then z is a float32 value *)
    intros Hn. destruct (round_int 24 (-149) ltac:(lia) ltac:(lia) z) as [N HN]. rewrite <- Hv in HN.
    rewrite (int_value_some g N) by (apply int_value_spec; now split).
    destruct (Z.eqb_spec (if (N >=? two63) || (N <? - two63) then - two63 else N) z) as [He|]; [exfalso|reflexivity].
    apply Hn. rewrite <- He. destruct ((N >=? two63) || (N <? - two63)).
    + rewrite opp_IZR, two63_bpow. apply generic_format_opp, generic_format_FLT_bpow; [reflexivity|lia].
    + rewrite <- HN. apply generic_format_B2R.
Qed.

Lemma skind_eqb_eq a b : skind_eqb a b = true <-> a = b.
Proof. destruct a, b; split; intros H; try reflexivity; try discriminate. Qed.
Lemma skind_eqb_refl k : skind_eqb k k = true.
Proof. now apply skind_eqb_eq. Qed.

(* tryConvertFieldValue on a scalar source.  The type switch looks at the dynamic type, and
   tryConvertByUnderlyingType keeps the payload between types of one kind *)
Definition scalar_conv (k : skind) (vt : sty) (sv : sval) : option sval :=
  match match is_f64_val (DS vt sv), is_i64_val (DS vt sv) with
        | Some b, _ => conv_f64 k b
        | _, Some z => conv_i64 k z
        | _, _ => None
        end with
  | Some w => Some w
  | None => if skind_eqb k (s_kind vt) then Some sv else None
  end.

Lemma try_convert_scalar t vt sv :
  try_convert (FScalar t) (DS vt sv) =
  if N.eqb (s_id vt) (s_id t) then Ok (Some (BSame (DS vt sv)))
  else Ok (opt_bscalar t (scalar_conv (s_kind t) vt sv)).
Proof.
  unfold try_convert, scalar_conv. cbn [dval_ty fty_id].
  destruct (N.eqb (s_id vt) (s_id t)); [reflexivity|].
  destruct (is_f64_val (DS vt sv)); [destruct (conv_f64 _ _); [reflexivity|]|
    destruct (is_i64_val (DS vt sv)); [destruct (conv_i64 _ _); [reflexivity|]|]];
  cbn [opt_bscalar option_map]; destruct (skind_eqb _ _); reflexivity.
Qed.

Lemma try_convert_ptr id e vt sv :
  try_convert (FPtr id e) (DS vt sv) =
  if N.eqb (s_id vt) id then Ok (Some (BSame (DS vt sv)))
  else if skind_eqb (s_kind e) (s_kind vt) then Ok (Some (BPtr id e sv)) else Ok None.
Proof.
  unfold try_convert. cbn [dval_ty fty_id].
  destruct (N.eqb (s_id vt) id); [reflexivity|].
  destruct (is_f64_val (DS vt sv)); [|destruct (is_i64_val (DS vt sv))]; destruct (skind_eqb _ _); reflexivity.
Qed.

Lemma is_f64_val_inv vt sv b : is_f64_val (DS vt sv) = Some b -> ids_ok vt = true ->
  sv = SF64 b /\ s_id vt = 13%N /\ s_kind vt = KFloat64.
Proof.
  unfold ids_ok. destruct sv; try discriminate. cbn. destruct (N.eqb (s_id vt) 13) eqn:E; [|discriminate].
  intros [= ->] [H%skind_eqb_eq _]%andb_prop. now apply N.eqb_eq in E.
Qed.
Lemma is_i64_val_inv vt sv z : is_i64_val (DS vt sv) = Some z -> ids_ok vt = true ->
  sv = SInt z /\ s_kind vt = KInt64.
Proof.
  unfold ids_ok. destruct sv; try discriminate. cbn. destruct (N.eqb (s_id vt) 6) eqn:E; [|discriminate].
  now intros [= ->] [_ H%skind_eqb_eq]%andb_prop.
Qed.

(* a float64 source: when tryConvertFloat64 declines, tryConvertByUnderlyingType declines too *)
Lemma scalar_conv_f64 k vt sv b : is_f64_val (DS vt sv) = Some b -> ids_ok vt = true ->
  scalar_conv k vt sv = conv_f64 k b.
Proof.
  intros E Hok. unfold scalar_conv. rewrite E.
  destruct (is_f64_val_inv _ _ _ E Hok) as (-> & _ & ->).
  destruct (conv_f64 k b) eqn:Ec; [reflexivity|].
  destruct (skind_eqb_eq k KFloat64) as [H _]. destruct (skind_eqb k KFloat64); [|reflexivity].
  rewrite (H eq_refl), conv_f64_is_ref in Ec. discriminate Ec.
Qed.
Lemma scalar_conv_i64 k vt sv z : is_i64_val (DS vt sv) = Some z -> ids_ok vt = true ->
  in_range KInt64 z = true -> scalar_conv k vt sv = conv_i64 k z.
Proof.
  intros E Hok Hr. unfold scalar_conv. rewrite E.
  destruct (is_i64_val_inv _ _ _ E Hok) as (-> & ->). cbn [is_f64_val].
  destruct (conv_i64 k z) eqn:Ec; [reflexivity|].
  destruct (skind_eqb_eq k KInt64) as [H _]. destruct (skind_eqb k KInt64); [|reflexivity].
  rewrite (H eq_refl), conv_i64_int_spec, Hr in Ec by reflexivity. discriminate Ec.
Qed.

Lemma scalar_conv_same_kind vt sv : ids_ok vt = true -> scalar_conv (s_kind vt) vt sv = Some sv.
Proof.
  intros Hok. unfold scalar_conv. rewrite skind_eqb_refl.
  destruct (is_f64_val (DS vt sv)) as [b|] eqn:E1; [|destruct (is_i64_val (DS vt sv)) as [z|] eqn:E2; [|reflexivity]].
  - destruct (is_f64_val_inv _ _ _ E1 Hok) as (-> & _ & ->). now rewrite conv_f64_is_ref.
  - destruct (is_i64_val_inv _ _ _ E2 Hok) as (-> & ->). rewrite conv_i64_int_spec by reflexivity.
    destruct (in_range _ _); reflexivity.
Qed.

Lemma same_kind_value_kept t vt sv :
  s_id t <> s_id vt -> s_kind t = s_kind vt -> ids_ok vt = true ->
  try_convert (FScalar t) (DS vt sv) = Ok (Some (BScalar t sv)).
Proof.
  intros Hid Hk Hok. rewrite try_convert_scalar, Hk, (scalar_conv_same_kind vt sv Hok).
  destruct (N.eqb_spec (s_id vt) (s_id t)); [congruence|reflexivity].
Qed.

Lemma pointer_value_kept id elem vt sv :
  id <> s_id vt -> s_kind elem = s_kind vt ->
  try_convert (FPtr id elem) (DS vt sv) = Ok (Some (BPtr id elem sv)).
Proof.
  intros Hid Hk. rewrite try_convert_ptr, Hk, skind_eqb_refl.
  destruct (N.eqb_spec (s_id vt) id); [congruence|reflexivity].
Qed.

Lemma try_convert_ok T v : (forall id tbl, v <> DJ id tbl) -> exists o, try_convert T v = Ok o.
Proof.
  (* every branch of try_convert but the two that go through JSON ends in Ok *)
  intros Hv. unfold try_convert.
  destruct T as [t|id elem|id|id|id kd [[eid ekd]|]|id]; destruct v as [|vt sv|vid tbl|s|vid vkd conv];
    try (exfalso; eapply Hv; reflexivity); cbn [dval_ty fty_id]; try (eexists; reflexivity);
    try (destruct (N.eqb _ _); [eexists; reflexivity|]);
    try (destruct (is_f64_val _); [|destruct (is_i64_val _)]);
    try destruct (opt_bscalar _ _); try destruct (skind_eqb _ _); do 2 try destruct (_ && _); eexists; reflexivity.
Qed.

Lemma scalar_never_fails T v : (v = DNil \/ exists t sv, v = DS t sv) ->
  exists o, try_convert T v = Ok o.
Proof. intros [->|(t & sv & ->)]; apply try_convert_ok; discriminate. Qed.

(* what comes back when nothing is bound: "not convertible" (the value then stays
   among the unknown fields), or ErrInternal for a composite that encoding/json
   rejects; never a panic *)
Lemma declined_is_none_or_fail T v :
  (exists b, try_convert T v = Ok (Some b)) \/ try_convert T v = Ok None \/
  (try_convert T v = Fail "internal" /\ exists id tbl id', v = DJ id tbl /\
     (T = FJson id' \/ exists e, T = FOther id' kind_array e)).
Proof.
  assert (D : (forall id tbl, v <> DJ id tbl) \/ exists id tbl, v = DJ id tbl)
    by (destruct v; eauto; left; discriminate).
  destruct D as [D|(id & tbl & ->)].
  { destruct (try_convert_ok T v D) as [[b|] E]; eauto. }
  destruct T as [t|id' e|id'|id'|id' kd e|id']; unfold try_convert; cbn [dval_ty fty_id is_f64_val is_i64_val];
    eauto; (destruct (N.eqb id _); [eauto|]); eauto.
  - destruct (find _ tbl) as [[? [?|]]|]; [eauto|..]; right; right; split; trivial; exists id, tbl, id'; auto.
  - destruct (N.eqb_spec kd kind_array) as [->|]; [|destruct e as [[? ?]|]; eauto].
    destruct (find _ tbl) as [[? [?|]]|]; [eauto|..]; right; right; split; trivial; exists id, tbl, id'; eauto.
Qed.

Definition fdec_of {p e} (emin : Z) (g : binary_float p e) : fdec :=
  match g with
  | B754_zero s => FFin s 0 emin
  | B754_infinity s => FInf s
  | B754_nan => FNan
  | B754_finite s m ex _ => FFin s (Zpos m) ex
  end.

Definition fdec_ff (emin : Z) (g : Binary.full_float) : fdec :=
  match g with
  | Binary.F754_zero s => FFin s 0 emin
  | Binary.F754_infinity s => FInf s
  | Binary.F754_nan _ _ => FNan
  | Binary.F754_finite s m ex => FFin s (Zpos m) ex
  end.

Lemma decode_aux mw ew x : 0 < mw -> 
  decode mw ew x = fdec_ff (fmt_emin mw ew) (Bits.binary_float_of_bits_aux mw ew x).
Proof.
  intros Hmw. unfold decode, Bits.binary_float_of_bits_aux, Bits.split_bits. cbv zeta.
  assert (Hp : 0 < 2 ^ mw) by (apply Z.pow_pos_nonneg; lia).
  pose proof (Z.mod_pos_bound x (2 ^ mw) Hp) as Hm.
  set (m := x mod 2 ^ mw) in *. set (ex := (x / 2 ^ mw) mod 2 ^ ew).
  change (SpecFloat.emin (mw + 1) (2 ^ (ew - 1))) with (fmt_emin mw ew).
  replace (fmt_emin mw ew) with (3 - 2 ^ (ew - 1) - (mw + 1)) by reflexivity.
  case Zeq_bool_spec; intros E1.
  - rewrite E1. cbn [Z.eqb]. destruct m; try reflexivity. lia.
  - destruct (Z.eqb_spec ex 0); [contradiction|].
    case Zeq_bool_spec; intros E2.
    + rewrite E2, Z.eqb_refl. destruct m; reflexivity.
    + destruct (Z.eqb_spec ex (2 ^ ew - 1)); [contradiction|].
      destruct (m + 2 ^ mw) eqn:E3; try lia. reflexivity.
Qed.

Lemma decode_spec mw ew Hmw Hew Hmax bits :
  decode mw ew bits =
  fdec_of (fmt_emin mw ew) (Binary.B2BSN _ _ (Bits.binary_float_of_bits mw ew Hmw Hew Hmax bits)).
Proof.
  rewrite decode_aux by exact Hmw. set (x := Bits.binary_float_of_bits mw ew Hmw Hew Hmax bits).
  rewrite <- (Binary.B2FF_FF2B _ _ _ (Bits.binary_float_of_bits_aux_correct mw ew Hmw Hew Hmax bits) : Binary.B2FF _ _ x = _).
  destruct x; reflexivity.
Qed.
Lemma dec64_spec bits : dec64 bits = fdec_of (-1074) (f64_of_bits bits).
Proof. exact (decode_spec 52 11 eq_refl eq_refl eq_refl bits). Qed.

Lemma decode_join mw ew s m ex :
  0 <= m < 2 ^ mw -> 0 <= ex < 2 ^ ew ->
  decode mw ew (Bits.join_bits mw ew s m ex) =
  if ex =? 0 then FFin s m (fmt_emin mw ew)
  else if ex =? 2 ^ ew - 1 then (if m =? 0 then FInf s else FNan)
  else FFin s (m + 2 ^ mw) (ex + fmt_emin mw ew - 1).
Proof.
  intros Hm He.
  pose proof (Bits.split_join_bits mw ew s m ex Hm He) as H.
  unfold Bits.split_bits in H. cbv zeta in H. injection H as H1 H2 H3.
  unfold decode. cbv zeta. rewrite H1, H2, H3. reflexivity.
Qed.

Lemma decode_bits_of_bsn mw ew nanbits (g : binary_float (mw + 1) (2 ^ (ew - 1))) :
  0 < mw -> 0 < ew -> decode mw ew nanbits = FNan ->
  decode mw ew (bits_of_bsn mw ew nanbits g) = fdec_of (fmt_emin mw ew) g.
Proof.
  intros Hmw Hew Hnan.
  assert (Hpm : 0 < 2 ^ mw) by (apply Z.pow_pos_nonneg; lia).
  assert (Hpe : 2 ^ ew = 2 * 2 ^ (ew - 1)).
  { replace ew with (1 + (ew - 1)) at 1 by lia. rewrite Z.pow_add_r by lia. reflexivity. }
  assert (Hpe1 : 0 < 2 ^ (ew - 1)) by (apply Z.pow_pos_nonneg; lia).
  assert (Hpp : 2 ^ (mw + 1) = 2 * 2 ^ mw).
  { rewrite Z.pow_add_r by lia. change (2 ^ 1) with 2. lia. }
  destruct g as [s|s| |s m ex Hb]; unfold bits_of_bsn, fdec_of.
  - rewrite decode_join by lia. reflexivity.
  - rewrite decode_join by lia.
    destruct (Z.eqb_spec (2 ^ ew - 1) 0); [lia|]. rewrite Z.eqb_refl. reflexivity.
  - exact Hnan.
  - destruct (bounded_facts (mw + 1) (2 ^ (ew - 1)) m ex ltac:(lia) Hb) as [B1 [B2 [B3 B4]]].
    replace (mw + 1 - 1) with mw in B4 by lia.
    cbv zeta. unfold fmt_emin.
    destruct (Z.leb_spec 0 (Z.pos m - 2 ^ mw)) as [Hn|Hs].
    + rewrite decode_join by lia.
      destruct (Z.eqb_spec (ex - (3 - 2 ^ (ew - 1) - (mw + 1)) + 1) 0); [lia|].
      destruct (Z.eqb_spec (ex - (3 - 2 ^ (ew - 1) - (mw + 1)) + 1) (2 ^ ew - 1)); [lia|].
      unfold fmt_emin. f_equal; lia.
    + rewrite decode_join by lia. cbn [Z.eqb]. unfold fmt_emin. f_equal. rewrite B4 by lia. reflexivity.
Qed.

Lemma dec32_bits_of_f32 (g : b32) : dec32 (bits_of_f32 g) = fdec_of (-149) g.
Proof. apply (decode_bits_of_bsn 23 8 nan32_bits g); reflexivity. Qed.

Lemma fdec_of_inj {p e} emin (g g' : binary_float p e) : fdec_of emin g = fdec_of emin g' -> g = g'.
Proof.
  destruct g as [s|s| |s m ex H], g' as [s'|s'| |s' m' ex' H']; cbn; intros E; try discriminate; try (inversion E; subst; reflexivity).
  inversion E; subst. f_equal. apply UIP_dec, Bool.bool_dec.
Qed.

Lemma of_bits_of_bsn mw ew Hmw Hew Hmax nanbits g : decode mw ew nanbits = FNan ->
  Binary.B2BSN _ _ (Bits.binary_float_of_bits mw ew Hmw Hew Hmax (bits_of_bsn mw ew nanbits g)) = g.
Proof.
  intros Hnan. apply (fdec_of_inj (fmt_emin mw ew)). rewrite <- decode_spec.
  apply decode_bits_of_bsn; [exact Hmw|exact Hew|exact Hnan].
Qed.
Lemma f64_of_bits_of_f64 (g : b64) : f64_of_bits (bits_of_f64 g) = g.
Proof. exact (of_bits_of_bsn 52 11 eq_refl eq_refl eq_refl nan64_bits g eq_refl). Qed.
Lemma f32_of_bits_of_f32 (g : b32) : f32_of_bits (bits_of_f32 g) = g.
Proof. exact (of_bits_of_bsn 23 8 eq_refl eq_refl eq_refl nan32_bits g eq_refl). Qed.

Lemma bits_of_bsn_of_bits mw ew Hmw Hew Hmax nanbits b : 0 <= b < 2 ^ (mw + ew + 1) ->
  let g := Binary.B2BSN _ _ (Bits.binary_float_of_bits mw ew Hmw Hew Hmax b) in
  is_nan_f g = false -> bits_of_bsn mw ew nanbits g = b.
Proof.
  intros Hb g Hn. subst g. rewrite <- (Bits.bits_of_binary_float_of_bits mw ew Hmw Hew Hmax b Hb) at 2.
  destruct (Bits.binary_float_of_bits _ _ _ _ _ b); try reflexivity. discriminate.
Qed.

Section Nearest.
Variables prec emin : Z.
Hypothesis Hprec : 1 < prec.
Instance c11_prec_gt_0 : Prec_gt_0 prec.
Proof. unfold Prec_gt_0. lia. Qed.
Notation fexp := (FLT_exp emin prec).
Notation format := (generic_format radix2 fexp).
Instance c11_exists_NE : Exists_NE radix2 fexp.
Proof. apply exists_NE_FLT. right. exact Hprec. Qed.

Lemma Zeven_pos_bool a : Z.even a = true \/ Z.even a = false.
Proof. destruct (Z.even a); auto. Qed.

Lemma nearest_mag_sound m e m' ee :
  0 <= m -> 0 <= m' < 2 ^ prec -> emin <= ee ->
  let x := (IZR m * bpow radix2 e)%R in let r := (IZR m' * bpow radix2 ee)%R in
  r = round radix2 fexp ZnearestE x ->
  (forall g, format g -> g <> r -> Rabs (g - x) = Rabs (r - x) -> Z.even m' = true) ->
  nearest_mag prec emin m e m' ee = true.
Proof.
  intros Hm Hmm Hee x r Hr Htie.
  assert (HN : Rnd_N_pt format x r) by (rewrite Hr; apply round_N_pt, FLT_exp_valid, c11_prec_gt_0).
  unfold nearest_mag. cbv zeta.
  set (E := Z.min e (ee - 1)).
  assert (HE1 : E <= e) by lia. assert (HE2 : E <= ee - 1) by lia.
  set (X := m * 2 ^ (e - E)). set (R := m' * 2 ^ (ee - E)). set (U := 2 ^ (ee - E)).
  set (b := bpow radix2 E). assert (Hb : (0 < b)%R) by apply bpow_gt_0.
  assert (Hx : x = (IZR X * b)%R) by (unfold x, X, b; now rewrite scale_int).
  assert (HR : r = (IZR R * b)%R) by (unfold r, R, b; now rewrite scale_int by lia).
  assert (HUpos : 0 < U) by (apply Z.pow_pos_nonneg; lia).
  assert (HX : 0 <= X) by (apply Z.mul_nonneg_nonneg; [lia|apply Z.pow_nonneg; lia]).
  (* the format number G b at distance W from r on the side of x: twice the distance of x is at
     most W, and equal to W only in a tie *)
  assert (Side : forall G T W, format (IZR G * b) -> 0 < W -> T = Z.abs (X - R) ->
            (R <= X /\ G = R + W \/ X <= R /\ G = R - W) ->
            (2 * T <? W) || ((2 * T =? W) && Z.even m') = true).
  { intros G T W Hg HW HT HG. destruct (nearest_scaled prec emin x r b X R G Hb Hx HR HN Hg) as [Hi Ht].
    destruct (Z.ltb_spec (2 * T) W); [reflexivity|]. replace (2 * T) with W by lia.
    rewrite Z.eqb_refl. cbn [orb andb]. apply (Htie _ Hg); [|apply Ht; lia].
    rewrite HR. intros Hgr. apply Rmult_eq_reg_r in Hgr; [apply eq_IZR in Hgr; lia|lra]. }
  destruct (Z.leb_spec R X) as [Hle|Hgt].
  - (* the neighbour above: r + ulp *)
    apply (Side (R + U)); try lia.
    replace (R + U) with ((m' + 1) * 2 ^ (ee - E)) by (unfold R, U; lia).
    unfold b. rewrite scale_int by lia. apply format_nat; lia.
  - (* the neighbour below: half an ulp away when r is a power of two above the subnormals *)
    assert (0 < m') by (destruct (Z.eq_dec m' 0) as [Z|]; [unfold R in Hgt; rewrite Z in Hgt|]; lia).
    set (bd := (m' =? 2 ^ (prec - 1)) && (emin <? ee)).
    set (D := if bd then 2 ^ (ee - 1 - E) else U).
    assert (HD : 0 < D) by (unfold D; destruct bd; [apply Z.pow_pos_nonneg|]; lia).
    apply (Side (R - D)); try lia. unfold D, b. destruct bd eqn:Hbd.
    + apply andb_prop in Hbd as [B1%Z.eqb_eq B2%Z.ltb_lt].
      assert (P2 : 2 ^ prec = 2 * 2 ^ (prec - 1) /\ U = 2 * 2 ^ (ee - 1 - E)).
      { unfold U. split; [replace prec with (1 + (prec - 1)) at 1 by lia|replace (ee - E) with (1 + (ee - 1 - E)) by lia];
          now rewrite Z.pow_add_r by lia. }
      replace (R - 2 ^ (ee - 1 - E)) with ((2 ^ prec - 1) * 2 ^ (ee - 1 - E)) by (unfold R; fold U; rewrite B1; lia).
      rewrite scale_int by lia. apply format_nat; lia.
    + replace (R - U) with ((m' - 1) * 2 ^ (ee - E)) by (unfold R, U; lia).
      rewrite scale_int by lia. apply format_nat; lia.
Qed.
End Nearest.

Lemma fits_format prec emin : 1 < prec -> emin <= 0 -> forall a, 0 <= a ->
  (fits prec a = true <-> generic_format radix2 (FLT_exp emin prec) (IZR a)).
Proof.
  intros Hprec Hemin a Ha. unfold fits. destruct (Z.eqb_spec a 0) as [->|Hnz].
  { split; [intros _; apply generic_format_0|reflexivity]. }
  assert (Hpos : 0 < a) by lia.
  destruct (Z.log2_spec a Hpos) as [L1 L2]. set (l := Z.log2 a) in *.
  assert (Hl : 0 <= l) by apply Z.log2_nonneg.
  set (k := l + 1 - prec).
  assert (Hmag : (mag radix2 (IZR a) : Z) = l + 1).
  { apply mag_unique_pos. replace (l + 1 - 1) with l by lia. rewrite !bpow_IZR by lia.
    split; [apply IZR_le|apply IZR_lt]; [exact L1|]. replace (l + 1) with (Z.succ l) by lia. exact L2. }
  destruct (Z.leb_spec k 0) as [Hk|Hk].
  - split; [intros _|reflexivity]. apply (small_int_format prec emin Hprec Hemin).
    rewrite Z.abs_eq by lia. apply Z.lt_le_incl. apply Z.lt_le_trans with (1 := L2).
    apply Z.pow_le_mono_r; lia.
  - assert (P2 : 0 < 2 ^ k) by (apply Z.pow_pos_nonneg; lia).
    split.
    + intros H. apply Z.eqb_eq in H.
      pose proof (Z.div_mod a (2 ^ k) ltac:(lia)) as Hd. rewrite H, Z.add_0_r in Hd.
      set (q := a / 2 ^ k) in *.
      replace (IZR a) with (IZR q * bpow radix2 k)%R.
      2:{ rewrite bpow_IZR by lia. rewrite <- mult_IZR. f_equal. lia. }
      apply (format_nat prec emin Hprec); [|lia].
      assert (q < 2 ^ prec).
      { apply Z.mul_lt_mono_pos_l with (2 ^ k); [lia|]. rewrite <- Z.pow_add_r by lia.
        replace (k + prec) with (Z.succ l) by lia. lia. }
      assert (0 <= q) by (apply Z.div_pos; lia). lia.
    + intros Hf. apply Z.eqb_eq. unfold generic_format in Hf.
      assert (Hc : cexp radix2 (FLT_exp emin prec) (IZR a) = k).
      { unfold cexp, FLT_exp. rewrite Hmag. fold k. lia. }
      rewrite Hc in Hf. unfold F2R in Hf. cbn [Fnum Fexp] in Hf.
      rewrite bpow_IZR, <- mult_IZR in Hf by lia. apply eq_IZR in Hf.
      rewrite Hf. apply Z.mod_mul. lia.
Qed.

Lemma fits_format32 a : 0 <= a -> (fits 24 a = true <-> generic_format radix2 fexp32 (IZR a)).
Proof. apply fits_format; lia. Qed.

Lemma mag_le_spec m e m' e' :
  mag_le m e m' e' = true <-> (IZR m * bpow radix2 e <= IZR m' * bpow radix2 e')%R.
Proof.
  unfold mag_le. cbv zeta. set (E := Z.min e e').
  rewrite <- (scale_int m e E), <- (scale_int m' e' E) by lia.
  pose proof (bpow_gt_0 radix2 E) as Hb.
  rewrite Z.leb_le. split; intros H.
  - apply Rmult_le_compat_r; [lra|]. now apply IZR_le.
  - apply le_IZR. apply Rmult_le_reg_r with (1 := Hb). exact H.
Qed.

Lemma fdec_of_fin {p e} emin (g : binary_float p e) : is_finite g = true ->
  exists m ex, fdec_of emin g = FFin (Bsign g) m ex /\ 0 <= m /\
    B2R g = (if Bsign g then - (IZR m * bpow radix2 ex) else IZR m * bpow radix2 ex)%R.
Proof.
  destruct g as [s|s| |s m ex H]; try discriminate; intros _.
  - exists 0, emin. repeat split; [lia|]. cbn. destruct s; ring.
  - exists (Zpos m), ex. repeat split; [lia|]. unfold B2R. cbn [Bsign]. destruct s; [|reflexivity].
    change (SpecFloat.cond_Zopp true (Z.pos m)) with (- Z.pos m). now rewrite F2R_Zopp.
Qed.

Section RoundOk.
Variables mw ew nanbits : Z.
Hypothesis Hmw : 0 < mw.
Hypothesis Hew : 0 < ew.
Hypothesis Hnan : decode mw ew nanbits = FNan.
Notation fexp := (FLT_exp (fmt_emin mw ew) (mw + 1)).

Lemma round_ok_sound (g : binary_float (mw + 1) (2 ^ (ew - 1))) s m e :
  is_finite g = true -> 0 <= m -> Bsign g = s ->
  B2R g = round radix2 fexp ZnearestE (if s then - (IZR m * bpow radix2 e) else IZR m * bpow radix2 e)%R ->
  round_ok mw ew s m e (bits_of_bsn mw ew nanbits g) = true.
Proof.
  intros Hf Hm Hs Hv. unfold round_ok. rewrite (decode_bits_of_bsn mw ew nanbits g Hmw Hew Hnan).
  assert (Hp : 1 < mw + 1) by lia.
  assert (Hx : Rabs (B2R g) = round radix2 fexp ZnearestE (IZR m * bpow radix2 e)).
  { assert (0 <= round radix2 fexp ZnearestE (IZR m * bpow radix2 e))%R.
    { apply round_ge_generic; auto with typeclass_instances.
      - apply FLT_exp_valid. unfold Prec_gt_0. lia.
      - apply generic_format_0.
      - apply Rmult_le_pos; [now apply IZR_le|apply bpow_ge_0]. }
    rewrite Hv. destruct s; [rewrite round_NE_opp, Rabs_Ropp|]; now apply Rabs_pos_eq. }
  destruct g as [s'|s'| |s' mm ee Hb]; try discriminate; unfold fdec_of; cbn [Bsign] in Hs;
    rewrite Hs, eqb_reflx; cbn [andb]; apply (nearest_mag_sound (mw + 1) (fmt_emin mw ew) Hp); try lia.
  - rewrite <- Hx, Rmult_0_l. cbn [B2R]. now rewrite Rabs_R0.
  - reflexivity.
  - pose proof (bounded_facts (mw + 1) (2 ^ (ew - 1)) mm ee ltac:(lia) Hb). lia.
  - apply (bounded_facts (mw + 1) (2 ^ (ew - 1)) mm ee ltac:(lia) Hb).
  - rewrite <- Hx. unfold B2R. now rewrite <- F2R_Zabs, abs_cond_Zopp.
  - apply (tie_even (mw + 1) (fmt_emin mw ew) Hp (IZR m * bpow radix2 e) mm ee).
    + exact (canonical_bounded (mw + 1) (2 ^ (ew - 1)) false mm ee Hb).
    + rewrite <- Hx. unfold B2R. now rewrite <- F2R_Zabs, abs_cond_Zopp.
Qed.

Lemma finite_not_nan_bits (g : binary_float (mw + 1) (2 ^ (ew - 1))) :
  is_finite g = true -> is_nan_bits mw ew (bits_of_bsn mw ew nanbits g) = false.
Proof.
  intros Hf. unfold is_nan_bits. rewrite (decode_bits_of_bsn mw ew nanbits g Hmw Hew Hnan).
  destruct g; try discriminate; reflexivity.
Qed.
End RoundOk.

Lemma round_ok_sound32 (g : b32) s m e :
  is_finite g = true -> 0 <= m -> Bsign g = s ->
  B2R g = round radix2 fexp32 ZnearestE (if s then - (IZR m * bpow radix2 e) else IZR m * bpow radix2 e)%R ->
  round_ok 23 8 s m e (bits_of_f32 g) = true.
Proof. apply (round_ok_sound 23 8 nan32_bits); reflexivity. Qed.
(* [dval_eqb] and [obs_eqb] are partial: for them only the implication holds *)
Lemma sty_eqb_eq a b : sty_eqb a b = true <-> a = b.
Proof.
  destruct a, b. unfold sty_eqb. cbn. rewrite andb_true_iff, N.eqb_eq, skind_eqb_eq.
  split; [intros [-> ->]|intros [= -> ->]]; auto.
Qed.
Lemma sval_eqb_eq a b : sval_eqb a b = true <-> a = b.
Proof. destruct a, b; cbn; rewrite ?eqb_true_iff, ?str_eqb_eq, ?Z.eqb_eq; split; congruence. Qed.
Lemma tval_eqb_eq a b : tval_eqb a b = true <-> a = b.
Proof.
  destruct a, b; cbn; rewrite ?andb_true_iff, ?N.eqb_eq, ?sty_eqb_eq, ?sval_eqb_eq; split; try congruence;
    intuition congruence.
Qed.
Lemma obs_eqb_eq a b : obs_eqb a b = true -> a = b.
Proof.
  destruct a as [x|[[|t v| | |]|]| | |], b as [y|[[|t' v'| | |]|]| | |]; cbn;
    rewrite ?tval_eqb_eq, ?andb_true_iff, ?sty_eqb_eq, ?sval_eqb_eq; try congruence; intuition congruence.
Qed.
Lemma sty_eqb_refl t : sty_eqb t t = true.
Proof. now apply sty_eqb_eq. Qed.
Lemma tval_eqb_refl v : tval_eqb v v = true.
Proof. now apply tval_eqb_eq. Qed.

(* the match inside [check] of Check/C11.v *)
Definition agrees (x : expect) (src : dval) (o : obs) : bool :=
  match x, o with
  | XDecline, ODeclined (Some u) => dval_eqb u (canon_dval src)
  | XBind v, OBound o => tval_eqb o (canon_tval v)
  | XRound32 t s m e, OBound (TV t' (SF32 r)) => sty_eqb t t' && round_ok 23 8 s m e r
  | XRound64 t s m e, OBound (TV t' (SF64 r)) => sty_eqb t t' && round_ok 52 11 s m e r
  | _, _ => false
  end.
Definition obs_of (t : sty) (src : dval) (o : option sval) : obs :=
  match o with
  | Some v => OBound (canon_tval (TV t v))
  | None => ODeclined (Some (canon_dval src))
  end.

Lemma agrees_decline' t' t sv : agrees XDecline (DS t sv) (obs_of t' (DS t sv) None) = true.
Proof. cbn. now rewrite andb_true_iff, sty_eqb_eq, sval_eqb_eq. Qed.
Lemma agrees_decline t sv : agrees XDecline (DS t sv) (obs_of t (DS t sv) None) = true.
Proof. apply agrees_decline'. Qed.
Lemma agrees_bind t src v : agrees (XBind (TV t v)) src (obs_of t src (Some v)) = true.
Proof. apply tval_eqb_refl. Qed.

Lemma agrees_round32 t src s m e (g : b32) :
  is_finite g = true -> 0 <= m -> Bsign g = s ->
  B2R g = round radix2 fexp32 ZnearestE (if s then - (IZR m * bpow radix2 e) else IZR m * bpow radix2 e)%R ->
  agrees (XRound32 t s m e) src (obs_of t src (Some (SF32 (bits_of_f32 g)))) = true.
Proof.
  intros Hf Hm Hs Hv. cbn [obs_of canon_tval canon_sval].
  rewrite (finite_not_nan_bits 23 8 nan32_bits eq_refl eq_refl eq_refl g Hf : is_nan_bits 23 8 (bits_of_f32 g) = false). cbn [agrees].
  rewrite sty_eqb_refl. now apply round_ok_sound32.
Qed.
Lemma agrees_round64 t src s m e (g : b64) :
  is_finite g = true -> 0 <= m -> Bsign g = s ->
  B2R g = round radix2 fexp64 ZnearestE (if s then - (IZR m * bpow radix2 e) else IZR m * bpow radix2 e)%R ->
  agrees (XRound64 t s m e) src (obs_of t src (Some (SF64 (bits_of_f64 g)))) = true.
Proof.
  intros Hf Hm Hs Hv. cbn [obs_of canon_tval canon_sval].
  rewrite (finite_not_nan_bits 52 11 nan64_bits eq_refl eq_refl eq_refl g Hf : is_nan_bits 52 11 (bits_of_f64 g) = false). cbn [agrees].
  rewrite sty_eqb_refl. now apply (round_ok_sound 52 11 nan64_bits).
Qed.

Lemma fin_int_value {p e} emin (f : binary_float p e) :
  match fdec_of emin f with FFin s m ex => fin_int s m ex | _ => None end = int_value f.
Proof.
  destruct f as [s|s| |s m ex H]; try reflexivity; unfold fdec_of, fin_int, int_value, is_integral, to_Z, sgn.
  - rewrite Z.mul_0_l, Zmod_0_l, Zdiv_0_l. destruct (0 <=? emin), s; reflexivity.
  - destruct (0 <=? ex); cbn [orb]; [reflexivity|]. destruct (Z.pos m mod 2 ^ (- ex) =? 0); reflexivity.
Qed.

Lemma spec_f64_int t b : is_int_kind (s_kind t) = true ->
  spec_f64 t b = match int_value (f64_of_bits b) with
                 | Some z => if in_range (s_kind t) z then XBind (TV t (SInt z)) else XDecline
                 | None => XDecline
                 end.
Proof.
  intros Hk. unfold spec_f64. rewrite Hk, dec64_spec, <- (fin_int_value (-1074)).
  destruct (fdec_of _ _); reflexivity.
Qed.

Lemma int_value_bits_inj b b' z : 0 <= b < two64 -> 0 <= b' < two64 -> z <> 0 ->
  int_value (f64_of_bits b) = Some z -> int_value (f64_of_bits b') = Some z -> b = b'.
Proof.
  intros Hb Hb' Hz [Hf Hv]%int_value_spec [Hf' Hv']%int_value_spec.
  assert (S : forall x : b64, is_finite x = true -> B2R x = IZR z -> is_finite_strict x = true /\ is_nan_f x = false).
  { intros x Fx Vx. destruct x; try discriminate; [|now split]. apply (eq_IZR 0) in Vx. now elim Hz. }
  destruct (S _ Hf Hv) as [S1 N1], (S _ Hf' Hv') as [S2 N2].
  rewrite <- (bits_of_bsn_of_bits 52 11 eq_refl eq_refl eq_refl nan64_bits b Hb N1),
          <- (bits_of_bsn_of_bits 52 11 eq_refl eq_refl eq_refl nan64_bits b' Hb' N2).
  f_equal. apply B2R_inj; try assumption. exact (eq_trans Hv (eq_sym Hv')).
Qed.

(* K6: the inputs one above the 64-bit ranges *)
Definition k6_bits (k : skind) (b : Z) : bool :=
  match k with KInt | KInt64 => b =? bits_two63 | KUint | KUint64 => b =? bits_two64 | _ => false end.

Lemma k6_bits_spec k b : 0 <= b < two64 -> slack k = 1 ->
  int_value (f64_of_bits b) = Some (int_max k + 1) -> k6_bits k b = true.
Proof.
  intros Hb Hs Hv.
  assert (B : forall b' z, (0 <=? b') && (b' <? two64) = true -> z <> 0 -> int_value (f64_of_bits b') = Some z ->
              int_value (f64_of_bits b) = Some z -> (b =? b') = true).
  { intros b' z [H1%Z.leb_le H2%Z.ltb_lt]%andb_prop Hz V' V. apply Z.eqb_eq. now apply (int_value_bits_inj b b' z). }
  destruct k; try discriminate Hs; cbn [k6_bits]; eapply B; try exact Hv; try discriminate; vm_compute; reflexivity.
Qed.

Lemma f64_int_case t src b :
  is_int_kind (s_kind t) = true -> 0 <= b < two64 -> k6_bits (s_kind t) b = false ->
  agrees XDecline src (obs_of t src None) = true ->
  agrees (spec_f64 t b) src (obs_of t src (conv_f64 (s_kind t) b)) = true.
Proof.
  intros Hk Hb Hk6 Hdec. rewrite (spec_f64_int t b Hk), (conv_f64_int _ b Hk). set (k := s_kind t) in *.
  destruct (int_value (f64_of_bits b)) as [z|] eqn:Ev; [|exact Hdec]. unfold in_range.
  pose proof (slack_range k) as Hsl.
  destruct (Z.leb_spec (int_min k) z); [|exact Hdec]. cbn [andb].
  destruct (Z.leb_spec z (int_max k)).
  - destruct (Z.leb_spec z (int_max k + slack k)); [|lia].
    rewrite amd64_in_range by (try assumption; lia). apply agrees_bind.
  - destruct (Z.leb_spec z (int_max k + slack k)); [exfalso|exact Hdec].
    rewrite k6_bits_spec in Hk6; [discriminate|exact Hb|lia|]. now replace (int_max k + 1) with z by lia.
Qed.

Lemma f64_f32_case t src b :
  s_kind t = KFloat32 ->
  agrees XDecline src (obs_of t src None) = true ->
  agrees (spec_f64 t b) src (obs_of t src (conv_f64 (s_kind t) b)) = true.
Proof.
  intros Hk Hdec. unfold spec_f64. rewrite Hk. cbn [is_int_kind is_signed is_unsigned orb].
  rewrite conv_f64_f32_spec. cbv zeta. rewrite dec64_spec. set (f := f64_of_bits b).
  destruct (is_finite f) eqn:Hf; [|destruct f; try discriminate Hf; [exact Hdec|apply agrees_bind]].
  destruct (fdec_of_fin (-1074) f Hf) as (m & ex & -> & Hm & Hv).
  assert (Ha : Rabs (B2R f) = (IZR m * bpow radix2 ex)%R).
  { assert (0 <= IZR m * bpow radix2 ex)%R by (apply Rmult_le_pos; [now apply IZR_le|apply bpow_ge_0]).
    rewrite Hv. destruct (Bsign f); [rewrite Rabs_Ropp|]; now apply Rabs_pos_eq. }
  replace (is_nan_f f) with false by (destruct f; try discriminate Hf; reflexivity). cbn [orb andb].
  pose proof (mag_le_spec m ex max32_m max32_e) as Hle.
  replace (IZR max32_m * bpow radix2 max32_e)%R with (IZR max_float32_Z) in Hle
    by (unfold max32_e; rewrite bpow_IZR, <- mult_IZR by lia; reflexivity).
  rewrite <- Ha in Hle.
  destruct (Rlt_bool_spec (IZR max_float32_Z) (Rabs (B2R f))) as [Hgt|Hle'].
  - destruct (mag_le m ex max32_m max32_e); [|exact Hdec]. pose proof (proj1 Hle eq_refl). lra.
  - rewrite (proj2 Hle Hle'). destruct (f64_to_f32_correct f Hf Hle') as [G1 [G2 G3]].
    apply agrees_round32; try assumption. now rewrite G2, Hv.
Qed.

Lemma IZR_sign_abs z :
  (if z <? 0 then - (IZR (Z.abs z) * bpow radix2 0) else IZR (Z.abs z) * bpow radix2 0)%R = IZR z.
Proof.
  change (bpow radix2 0) with 1%R. rewrite Rmult_1_r. destruct (Z.ltb_spec z 0).
  - rewrite Z.abs_neq, opp_IZR by lia. ring.
  - now rewrite Z.abs_eq.
Qed.

Lemma i64_case t src z :
  - two63 <= z < two63 ->
  agrees XDecline src (obs_of t src None) = true ->
  agrees (spec_i64 t z) src (obs_of t src (conv_i64 (s_kind t) z)) = true.
Proof.
  intros Hz Hdec. unfold spec_i64. assert (Hz' : Z.abs z <= two64) by (change two64 with (2 * two63); lia).
  destruct (is_int_kind (s_kind t)) eqn:Hi.
  { rewrite conv_i64_int_spec by exact Hi. destruct (in_range _ z); [apply agrees_bind|exact Hdec]. }
  destruct (s_kind t) eqn:Hk; try discriminate Hi; try exact Hdec.
  - destruct (i64_to_f32_lossless z Hz) as [L1 L2].
    destruct (i64_to_f32_correct z Hz') as [G1 [G2 G3]].
    pose proof (fits_format 24 (-149) ltac:(lia) ltac:(lia) (Z.abs z) (Z.abs_nonneg z)) as Hfit.
    rewrite abs_IZR in Hfit.
    destruct (fits 24 (Z.abs z)).
    + destruct L1 as [-> _]; [apply generic_format_abs_inv; now apply Hfit|].
      apply agrees_round32; try assumption; [lia|]. now rewrite IZR_sign_abs.
    + rewrite L2; [exact Hdec|]. intros Hfmt%generic_format_abs%Hfit. discriminate.
  - destruct (i64_to_f64_correct z Hz') as [G1 [G2 G3]].
    rewrite conv_i64_is_ref; unfold conv_i64_ref. cbn [is_signed is_unsigned].
    apply agrees_round64; try assumption; [lia|]. now rewrite IZR_sign_abs.
Qed.

Lemma spec_scalar t vt sv :
  spec (FScalar t) (DS vt sv) =
  if N.eqb (s_id t) (s_id vt) then XBind (TV vt sv)
  else match is_f64_val (DS vt sv), is_i64_val (DS vt sv) with
       | Some b, _ => spec_f64 t b
       | _, Some z => spec_i64 t z
       | _, _ => if skind_eqb (s_kind t) (s_kind vt) then XBind (TV t sv) else XDecline
       end.
Proof.
  cbn [spec]. unfold is_f64_val, is_i64_val. destruct (N.eqb _ _); [reflexivity|].
  destruct sv; try reflexivity; destruct (N.eqb (s_id vt) _); reflexivity.
Qed.

Lemma corr_implies_ok c : in_domain c = true -> k6_boundary c = false -> corr c = true -> ok c = true.
Proof.
  intros Hd Hk6 Hc. unfold ok. rewrite Hd. cbn [andb].
  change (check c) with (agrees (spec (c_target c) (c_src c)) (c_src c) (c_obs c)).
  apply obs_eqb_eq in Hc. rewrite Hc. clear Hc. unfold model.
  destruct c as [T v o]. unfold in_domain, k6_boundary in *. cbn [c_target c_src c_obs] in *.
  apply andb_prop in Hd as [HT Hv].
  destruct v as [|vt sv| | |]; try discriminate Hv.
  { destruct T; try discriminate HT; reflexivity. }
  apply andb_prop in Hv as [[Hvt Hsv]%andb_prop Hrel].
  destruct T as [t|id e|id|id|id kd ?|id]; try discriminate HT.
  - rewrite try_convert_scalar, spec_scalar, (N.eqb_sym (s_id t)).
    destruct (N.eqb (s_id vt) (s_id t)) eqn:Eid; [apply tval_eqb_refl|].
    replace (match opt_bscalar t (scalar_conv (s_kind t) vt sv) with
             | Some b => match view b with Some v => OBound (canon_tval v) | None => OWeird end
             | None => ODeclined (Some (canon_dval (DS vt sv)))
             end) with (obs_of t (DS vt sv) (scalar_conv (s_kind t) vt sv)) by (destruct (scalar_conv _ _ _); reflexivity).
    pose proof (agrees_decline' t vt sv) as Hdec.
    destruct (is_f64_val (DS vt sv)) as [b|] eqn:E1; [|destruct (is_i64_val (DS vt sv)) as [z|] eqn:E2].
    + rewrite (scalar_conv_f64 _ _ _ _ E1 Hvt). destruct (is_f64_val_inv _ _ _ E1 Hvt) as (-> & E13 & Ek).
      rewrite Ek in Hsv. apply andb_prop in Hsv as [H1%Z.leb_le H2%Z.ltb_lt].
      cbv beta iota in Hk6. rewrite E13 in Hk6, Eid. rewrite (N.eqb_sym (s_id t)), Eid in Hk6.
      assert (Hb : 0 <= b < two64) by now split.
      destruct (is_int_kind (s_kind t)) eqn:Hi; [now apply f64_int_case|].
      destruct (s_kind t) eqn:Hk; try discriminate Hi; try (rewrite <- Hk; now apply f64_f32_case);
        unfold spec_f64; rewrite Hk, conv_f64_is_ref; [exact Hdec..|apply agrees_bind].
    + destruct (is_i64_val_inv _ _ _ E2 Hvt) as (-> & Ek).
      rewrite Ek in Hsv. apply andb_prop in Hsv as [_ Hr].
      rewrite (scalar_conv_i64 _ _ _ _ E2 Hvt Hr). apply i64_case; [|exact Hdec].
      apply in_range_iff in Hr. cbn [int_min int_max] in Hr. lia.
    + unfold scalar_conv. rewrite E1, E2.
      destruct (skind_eqb _ _); [apply agrees_bind|exact Hdec].
  - apply andb_prop in Hrel as [Hne%negb_true_iff _]. rewrite try_convert_ptr, N.eqb_sym, Hne. cbn [spec]. rewrite Hne.
    destruct (skind_eqb (s_kind e) (s_kind vt)); [apply tval_eqb_refl|apply (agrees_decline' e)].
  - apply tval_eqb_refl.
Qed.
