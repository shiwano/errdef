(* C01.  Under [consistent] (roots identify origins; equal pointers have equal origins, which definition.Is's
   pointer test needs), what errors.Is computes at one node is [has_org] (node_is); is_iff_origin folds that over
   [reach].  [Inv] - consistent, address/origin bounds that make new factories fresh, every pool error within
   the pool's definitions - is kept by every statement (inv_step, through ProgFacts.step_cases). *)
From Errdef Require Import Base.Str Model.Core Model.GoErrors Model.Prog Check.C01 Proofs.ProgFacts.

Definition consistent (ds : list defn) : Prop :=
  forall d1 d2, In d1 ds -> In d2 ds ->
    (root d1 = root d2 <-> d_org d1 = d_org d2) /\ (d_addr d1 = d_addr d2 -> d_org d1 = d_org d2).

Definition node_def (n : err) : option defn :=
  match n with EDef _ d _ _ _ _ | EDefn d | ERest _ d _ _ _ _ => Some d | _ => None end.

Definition defs_within (ds : list defn) (e : err) : Prop :=
  forall n d, In n (reach e) -> node_def n = Some d -> In d ds.

Lemma root_org ds d1 d2 : consistent ds -> In d1 ds -> In d2 ds ->
  N.eqb (root d1) (root d2) = Nat.eqb (d_org d1) (d_org d2).
Proof.
  intros H H1 H2. destruct (H d1 d2 H1 H2) as [[A B] _].
  destruct (N.eqb_spec (root d1) (root d2)) as [E|E], (Nat.eqb_spec (d_org d1) (d_org d2)) as [F|F]; tauto.
Qed.

Lemma addr_org ds d1 d2 : consistent ds -> In d1 ds -> In d2 ds ->
  N.eqb (d_addr d1) (d_addr d2) || Nat.eqb (d_org d1) (d_org d2) = Nat.eqb (d_org d1) (d_org d2).
Proof.
  intros H H1 H2. destruct (N.eqb_spec (d_addr d1) (d_addr d2)) as [E|E]; [|reflexivity].
  apply (H d1 d2 H1 H2) in E. rewrite E. symmetry. apply Nat.eqb_refl.
Qed.

Lemma defn_is_defn ds d D : consistent ds -> In d ds -> In D ds ->
  defn_is d (EDefn D) = Nat.eqb (d_org d) (d_org D).
Proof.
  intros H H1 H2. unfold defn_is, as_first. cbn. rewrite orb_false_r, (root_org ds d D H H1 H2). now apply (addr_org ds).
Qed.

Lemma node_is ds n D : consistent ds -> In D ds ->
  (forall d, node_def n = Some d -> In d ds) ->
  same n (EDefn D) || is_method n (EDefn D) = has_org (d_org D) n.
Proof.
  intros H HD Hn. unfold has_org.
  destruct n; cbn [same is_defn_val is_method node_org node_def Bool.eqb andb orb addr_of] in *; try reflexivity;
    pose proof (Hn d eq_refl) as Hd.
  - now apply root_org with ds.
  - rewrite (defn_is_defn ds d D) by assumption. now apply (addr_org ds).
  - now apply defn_is_defn with ds.
Qed.

Theorem is_iff_origin ds e D : consistent ds -> In D ds -> defs_within ds e ->
  errors_is e (EDefn D) = spec_is e D.
Proof.
  intros H HD He. unfold errors_is, spec_is.
  unfold defs_within in He. induction (reach e) as [|n r IH]; [reflexivity|].
  cbn [existsb]. rewrite (node_is ds n D H HD).
  - f_equal. apply IH. intros n' d Hin. apply He. now right.
  - intros d. apply He. now left.
Qed.

Definition Inv (s : st) : Prop :=
  consistent (s_defs s) /\
  (forall d, In d (s_defs s) -> (d_addr d < s_next s)%N /\ (root d < s_next s)%N /\ d_org d < s_norg s) /\
  (forall e, In (Some e) (s_errs s) -> defs_within (s_defs s) e).

Lemma inv0 : Inv st0.
Proof. repeat split; cbn; intros; contradiction. Qed.

Lemma nth_in_or_default {A} (l : list A) i d : i < List.length l -> In (nth i l d) l.
Proof. apply nth_In. Qed.

Lemma inv_add_def s d' neworg :
  Inv s ->
  (forall d, In d (s_defs s) -> (root d' = root d <-> d_org d' = d_org d) /\ (d_addr d' = d_addr d -> d_org d' = d_org d)) ->
  (d_addr d' <= s_next s)%N -> (root d' <= s_next s)%N -> d_org d' < s_norg (add_def s d' 1 neworg) ->
  Inv (add_def s d' 1 neworg).
Proof.
  intros (Hc & Hb & He) Hn A R O. split; [|split]; cbn [add_def s_defs s_next s_norg s_errs] in *.
  - intros d1 d2 H1 H2. apply in_app_or in H1, H2.
    destruct H1 as [H1|[<-|[]]]; destruct H2 as [H2|[<-|[]]].
    + now apply Hc.
    + destruct (Hn d1 H1) as [[A' B] C]. split; [split|]; intros E; symmetry; [apply A'|apply B|apply C]; now symmetry.
    + exact (Hn d2 H2).
    + split; [tauto|reflexivity].
  - intros d Hd. apply in_app_or in Hd as [Hd|[<-|[]]]; [destruct (Hb d Hd) as (? & ? & ?)|]; destruct neworg; repeat split; lia.
  - intros e Hin n d0 Hr Hd. apply in_or_app. left. eapply He; eauto.
Qed.

Lemma inv_add_define s kind os : Inv s -> Inv (add_def s (define (s_next s) (s_norg s) kind os) 1 true).
Proof.
  intros HI. destruct (define_ids (s_next s) (s_norg s) kind os) as (A & R & O).
  apply inv_add_def; unfold root; rewrite ?R, ?A, ?O; try (cbn; lia); [exact HI|].
  intros d Hd. destruct HI as (_ & Hb & _). destruct (Hb d Hd) as (? & ? & ?). unfold root in *. repeat split; intros; lia.
Qed.

Lemma inv_add_derived s d os :
  Inv s -> In d (s_defs s) -> Inv (add_def s (with_options (s_next s) d os) 1 false).
Proof.
  intros HI Hd. pose proof HI as (Hc & Hb & _). destruct (Hb d Hd) as (? & ? & ?).
  destruct (with_options_ids (s_next s) d os) as [->|(A & R & O)]; apply inv_add_def; rewrite ?A, ?R, ?O; try (cbn; lia); try exact HI;
    intros d2 H2; destruct (Hc d d2 Hd H2) as [X Y]; auto.
  destruct (Hb d2 H2) as (? & _). repeat split; try apply X; intros; lia.
Qed.

Lemma inv_add_err s oe used :
  Inv s -> (forall e, oe = Some e -> defs_within (s_defs s) e) -> Inv (add_err s oe used).
Proof.
  intros [Hc [Hb He]] Hn. split; [|split]; cbn [add_err s_defs s_next s_norg s_errs].
  - exact Hc.
  - intros d Hd. destruct (Hb d Hd) as [A [B C]]. repeat split; lia.
  - intros e Hin. apply in_app_or in Hin. destruct Hin as [Hin|[E|[]]]; [now apply He|now apply Hn].
Qed.

Lemma dw_intro ds e :
  (forall d, node_def e = Some d -> In d ds) -> (forall c, In c (kids e) -> defs_within ds c) -> defs_within ds e.
Proof.
  intros He Hk n d Hin Hn. apply reach_incl in Hin as [<-|Hin]; [now apply He|].
  apply in_flat_map in Hin as (c & Hc & Hr). eapply Hk; eauto.
Qed.

Lemma dw_inner_panic ds x : defs_within ds x -> defs_within ds (inner_panic x).
Proof.
  intros H. destruct x as [a d m [[]|] j stk| | | | | | | | |]; try exact H.
  intros n dd Hn. apply (H n dd). cbn [reach is_multi]. right. rewrite Bool.andb_false_r. exact Hn.
Qed.

Lemma made_dw s (ok : Prop) e : Inv s -> ok -> made s ok e -> defs_within (s_defs s) e.
Proof.
  intros (_ & _ & He) Hok M. induction M as [e Hin|e _ IH|e Hd _ IH]; [now apply He|now apply dw_inner_panic|].
  apply dw_intro; [|exact IH]. intros d Hn. destruct e; try discriminate Hn; injection Hn as <-; now apply Hd.
Qed.

Lemma inv_step s x : Inv s -> st_ok s x = true -> Inv (step s x).
Proof.
  intros HI Hok. destruct (step_cases s x) as [kind os|parent os|d ctx os Hd|d os Hd|x oe used _ H].
  - now apply inv_add_define.
  - exact HI.
  - apply inv_add_derived; auto.
  - apply inv_add_derived; auto.
  - apply inv_add_err; [exact HI|]. intros e E. now apply (made_dw s _ e HI Hok), H.
Qed.

Theorem inv_run p : prog_ok p = true -> Inv (run p).
Proof. apply run_ind; [exact inv0|exact inv_step]. Qed.

Lemma find_some_in {A} (p : A -> bool) l x : find p l = Some x -> In x l /\ p x = true.
Proof. apply find_some. Qed.

Lemma found_org ds D e p n : consistent ds -> In D ds -> defs_within ds e -> find p (reach e) = Some n ->
  forall d, node_def n = Some d -> N.eqb (root D) (root d) = has_org (d_org D) n.
Proof.
  intros H HD He F d Hd. apply find_some in F as [Hin _]. rewrite (root_org ds D d H HD (He n d Hin Hd)).
  unfold has_org. destruct n; try discriminate Hd; injection Hd as ->; apply Nat.eqb_sym.
Qed.

(* the two errors.As lookups of definition.Is: the first errdef error, the first definition *)
Lemma first_defined_error_org ds D e : consistent ds -> In D ds -> defs_within ds e ->
  match as_first is_defined_error e with Some (EDef _ dd _ _ _ _) => N.eqb (root D) (root dd) | _ => false end
  = match find is_defined_error (reach e) with Some n => has_org (d_org D) n | None => false end.
Proof.
  intros H HD He. unfold as_first. destruct (find _ _) as [n|] eqn:F; [|reflexivity].
  pose proof (found_org ds D e _ n H HD He F) as G. apply find_some in F as [_ P].
  destruct n; try discriminate P. exact (G _ eq_refl).
Qed.

Lemma first_definition_org ds D e : consistent ds -> In D ds -> defs_within ds e ->
  match as_first is_definition e with Some (EDefn td) => N.eqb (root D) (root td) | _ => false end
  = match find is_definition (reach e) with Some n => has_org (d_org D) n | None => false end.
Proof.
  intros H HD He. unfold as_first. destruct (find _ _) as [n|] eqn:F; [|reflexivity].
  pose proof (found_org ds D e _ n H HD He F) as G. apply find_some in F as [_ P].
  destruct n; try discriminate P. exact (G _ eq_refl).
Qed.

Theorem rev_is_direct ds D e : consistent ds -> In D ds -> defs_within ds e ->
  errors_is (EDefn D) e = spec_rev D e.
Proof.
  intros H HD He. unfold errors_is, spec_rev. cbn [reach existsb is_method]. unfold defn_is.
  rewrite (first_defined_error_org ds), (first_definition_org ds) by assumption.
  (* left: the pointer test of definition.Is, which [same] repeats *)
  destruct e; cbn [same is_defn_val Bool.eqb andb addr_of orb]; rewrite ?orb_false_r; try reflexivity.
  now destruct (N.eqb (d_addr D) _).
Qed.

Lemma map_ext_in2 {A B} (f g : A -> B) l : (forall a, In a l -> f a = g a) -> map f l = map g l.
Proof. apply map_ext_in. Qed.

Theorem model_is_spec p : prog_ok p = true ->
  model_is (run p) = spec_is_mat (run p) /\ model_rev (run p) = spec_rev_mat (run p).
Proof.
  intros Hok. pose proof (inv_run p Hok) as [Hc [_ He]]. split.
  - unfold model_is, spec_is_mat. apply map_ext_in. intros oe Hoe. apply map_ext_in. intros d Hd.
    destruct oe as [e|]; [|reflexivity]. cbn. apply (is_iff_origin (s_defs (run p))); auto.
  - unfold model_rev, spec_rev_mat. apply map_ext_in. intros d Hd. apply map_ext_in. intros oe Hoe.
    destruct oe as [e|]; [|reflexivity]. cbn. apply (rev_is_direct (s_defs (run p))); auto.
Qed.

(* both begin with prog_ok, so no hypothesis is needed *)
Theorem corr_eq_ok c : corr c = ok c.
Proof.
  unfold corr, ok. destruct (prog_ok (c_prog c)) eqn:Hp; [|reflexivity]. now destruct (model_is_spec _ Hp) as [-> ->].
Qed.

Theorem corr_implies_ok c : prog_ok (c_prog c) = true -> corr c = true -> ok c = true.
Proof. intros _. now rewrite corr_eq_ok. Qed.

Theorem separate_defines_disjoint ds e D : consistent ds -> In D ds -> defs_within ds e ->
  (forall n d, In n (reach e) -> node_def n = Some d -> d_org d <> d_org D) ->
  errors_is e (EDefn D) = false.
Proof.
  intros H HD He Hno. rewrite (is_iff_origin ds) by assumption. unfold spec_is.
  apply not_true_is_false. intros E. apply existsb_exists in E as [n [Hin Ho]].
  unfold has_org in Ho. destruct n; cbn in Ho; try discriminate; apply Nat.eqb_eq in Ho;
    eapply Hno; eauto; reflexivity.
Qed.
