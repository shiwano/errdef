(* C13/C14 link: the kind resolution of the unmarshaler model (Model/Unmarshal.resolve_kind_u, what
   Unmarshaler.resolveKind does with its resolver) IS the resolver package's ResolveKind /
   ResolveKindOrDefault as interpreted from the source (Model/ResolverGen, Gen/ResolverSrc.v). *)
From Errdef Require Import Base.Str Model.Core Model.Unmarshal
  Model.Resolver Model.ResolverGen Proofs.ResolverProofs Proofs.C14Proofs Proofs.UnmarshalFacts.
Import ListNotations.

(* what package resolver sees of a registered definition: its identity and its kind *)
Definition rdef_of (d : udef) : rdef :=
  {| rd_id := d_addr (ud_def d); rd_kind := d_kind (ud_def d); rd_fields := [] |}.

Lemma find_map_rdef (defs : list udef) k :
  find (fun d => str_eqb (rd_kind d) k) (map rdef_of defs) = option_map rdef_of (resolve_kind_def defs k).
Proof.
  unfold resolve_kind_def. induction defs as [|d r IH]; [reflexivity|].
  cbn [map find]. cbn [rdef_of rd_kind]. destruct (str_eqb (d_kind (ud_def d)) k); [reflexivity|exact IH].
Qed.

Theorem resolver_kind_is_unmarshaler_lookup defs k : wf_defs (map rdef_of defs) ->
  g_resolve_kind (g_new_resolver (map rdef_of defs)) k = option_map rdef_of (resolve_kind_def defs k).
Proof.
  intros Hwf. rewrite (g_new_resolver_ref _ Hwf). change (g_resolve_kind ?r k) with (resolve_kind r k).
  rewrite (resolve_kind_first _ _ Hwf). apply find_map_rdef.
Qed.

Theorem resolve_kind_u_is_resolver c k : wf_defs (map rdef_of (u_defs c)) ->
  let r := g_new_resolver (map rdef_of (u_defs c)) in
  match u_default c, u_strict c with
  | Some dflt, false =>
      exists d, resolve_kind_u c k = UOk d /\
                rdef_of d = g_resolve_kind_or_default r (rdef_of dflt) k
  | _, _ =>
      match g_resolve_kind r k with
      | Some rd => exists d, resolve_kind_u c k = UOk d /\ rdef_of d = rd
      | None => resolve_kind_u c k = UFail [kind_failure k]
      end
  end.
Proof.
  intros Hwf. cbv zeta. rewrite resolve_kind_u_spec. unfold resolved_def.
  change (g_resolve_kind_or_default ?r ?d k) with (or_default d (g_resolve_kind r k)).
  rewrite (resolver_kind_is_unmarshaler_lookup _ _ Hwf).
  destruct (resolve_kind_def (u_defs c) k) as [d|], (u_default c) as [dflt|], (u_strict c); cbn [option_map or_default];
    try (eexists; split; reflexivity); reflexivity.
Qed.
