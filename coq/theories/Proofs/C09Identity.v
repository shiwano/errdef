(* C09, identity: the restored error carries, node for node, the origins (Define) of the original's
   cause tree; errors.Is on the restored value is membership of an origin among them (restored_is).
   No theorem relates errors.Is on the original error to torgs of its tree. *)
From Errdef Require Import Base.Str Base.ListFacts Base.Outcome Model.Core Model.GoErrors Model.Tree0 Model.Json
  Model.Unmarshal Model.Decode Check.C01 Proofs.C01Proofs Proofs.TreeFacts
  Proofs.UnmarshalFacts Proofs.C09Structure.

Fixpoint rdefs_ok (c : ucfg) (r : rerr) : Prop :=
  match r with
  | RErr d _ _ _ _ cs =>
      (exists k, resolve_kind_u c k = UOk d) /\
      (fix go (l : list rcause) : Prop := match l with [] => True | x :: t => cdefs_ok c x /\ go t end) cs
  end
with cdefs_ok (c : ucfg) (x : rcause) : Prop :=
  match x with
  | RCErr e => rdefs_ok c e
  | RCDef d => In d (u_defs c)
  | RCSentinel _ => True
  | RCUnknown _ _ cs => (fix go (l : list rcause) : Prop := match l with [] => True | x :: t => cdefs_ok c x /\ go t end) cs
  end.

Lemma seq_causes_ok (P : rcause -> Prop) rs l :
  seq_causes rs = UOk l -> Forall (fun r => forall x, r = UOk x -> P x) rs -> Forall P l.
Proof.
  revert l. induction rs as [|r rest IH]; intros l E H; cbn in E; [inversion E; constructor|].
  inversion H; subst. destruct r as [x|f|w]; try discriminate.
  destruct (seq_causes rest) as [xs|f|w] eqn:Er; try discriminate. inversion E; subst.
  constructor; [now apply H2|]. now apply IH.
Qed.

Theorem unmarshal_defs_from_resolver c : forall d,
  (forall r, unmarshal c d = UOk r -> rdefs_ok c r) /\ (forall x, unmarshal_cause c d = UOk x -> cdefs_ok c x).
Proof.
  induction d as [m k t fs st cs u IH] using dd_Forall_ind.
  assert (Hc : forall l, causes_model c cs = UOk l -> Forall (cdefs_ok c) l).
  { intros l E. apply (seq_causes_ok _ _ _ E), Forall_map. eapply Forall_impl; [|exact IH].
    intros [x|] Hx y Hy; [exact (proj2 Hx y Hy)|discriminate]. }
  assert (He : forall r, unmarshal c (DD m k t fs st cs u) = UOk r -> rdefs_ok c r).
  { intros r E. apply unmarshal_ok_inv in E as (def & cs' & ty & un & Ek & Ec & _ & ->).
    split; [now exists k|]. now apply fix_and_Forall, Hc. }
  split; [exact He|]. rewrite unmarshal_cause_node. unfold node_cause.
  destruct (unmarshal c _) as [e|ffs|w]; try discriminate; intros x E.
  - injection E as <-. now apply He.
  - destruct (has_internal ffs); [discriminate|].
    destruct (causes_model c cs) as [[|c1 r1]|f|w] eqn:Ec; try discriminate.
    + destruct (if str_eqb _ definition_type_name then _ else None) as [rd|] eqn:Er.
      * injection E as <-. destruct (str_eqb _ definition_type_name); [|discriminate].
        now apply resolve_kind_def_some in Er.
      * destruct (lookup_sentinel c _ _); injection E as <-; exact I.
    + injection E as <-. now apply (fix_and_Forall (cdefs_ok c) (c1 :: r1)), Hc.
Qed.

Definition node_orgs (e : err) : list nat := match node_org e with Some o => [o] | None => [] end.
Fixpoint torgs (t : tree) : list nat :=
  match t with
  | T e kids => node_orgs e ++ (fix go (l : list tree) : list nat := match l with [] => [] | k :: r => torgs k ++ go r end) kids
  end.
Fixpoint rorgs (r : rerr) : list nat :=
  match r with
  | RErr d _ _ _ _ cs => d_org (ud_def d) :: (fix go (l : list rcause) : list nat := match l with [] => [] | x :: t => corgs x ++ go t end) cs
  end
with corgs (x : rcause) : list nat :=
  match x with
  | RCErr e => rorgs e
  | RCDef d => [d_org (ud_def d)]
  | RCSentinel _ => []
  | RCUnknown _ _ cs => (fix go (l : list rcause) : list nat := match l with [] => [] | x :: t => corgs x ++ go t end) cs
  end.

Lemma torgs_unfold e kids : torgs (T e kids) = node_orgs e ++ flat_map torgs kids.
Proof. cbn. f_equal. Qed.
Lemma rorgs_unfold d m ty un st cs : rorgs (RErr d m ty un st cs) = d_org (ud_def d) :: flat_map corgs cs.
Proof. cbn. f_equal. Qed.
Lemma corgs_unknown m t cs : corgs (RCUnknown m t cs) = flat_map corgs cs.
Proof. reflexivity. Qed.

(* registration agrees with the sender *)
Fixpoint registered (c : ucfg) (t : tree) : Prop :=
  match t with
  | T e kids =>
      (forall ud d, resolve_kind_u c (e_kind e) = UOk ud -> e_def e = Some d -> d_org (ud_def ud) = d_org d) /\
      (fix go (l : list tree) : Prop := match l with [] => True | k :: r => registered c k /\ go r end) kids
  end.
Lemma registered_kids c e kids : registered c (T e kids) -> Forall (registered c) kids.
Proof. intros [_ H]. exact (proj1 (fix_and_Forall (registered c) kids) H). Qed.

(* when kind "" fails to resolve there is no lenient default: only registered kinds resolve, "" is not one *)
Lemma resolve_u_kind c k d : foreign_fails c -> resolve_kind_u c k = UOk d -> d_kind (ud_def d) = k.
Proof.
  intros [Hf _] H. apply resolve_kind_u_ok in H as [H|[_ [Hd Hs]]]; [now apply resolve_kind_def_some in H|].
  unfold resolve_kind_u in Hf. rewrite Hd, Hs in Hf. discriminate.
Qed.

Lemma foreign_unregistered c : foreign_fails c -> resolve_kind_def (u_defs c) "" = None.
Proof.
  intros [Hf _]. destruct (resolve_kind_def (u_defs c) "") as [ud|] eqn:E; [|reflexivity].
  rewrite (proj2 (resolve_kind_u_ok c "" ud) (or_introl E)) in Hf. discriminate.
Qed.

Lemma errdef_node_orgs e : is_errdef_error e = true -> exists d, e_def e = Some d /\ node_orgs e = [d_org d].
Proof. destruct e; try discriminate; intros _; eexists; split; reflexivity. Qed.
Lemma foreign_node_orgs e : is_errdef_error e = false -> type_name e <> definition_type_name -> node_orgs e = [].
Proof. destruct e; try discriminate; try reflexivity. intros _ H. exfalso. apply H. reflexivity. Qed.

Theorem orgs_restored c : foreign_fails c ->
  forall t, udom c t -> registered c t ->
  (forall rc, cshape rc = tshape t -> cdefs_ok c rc -> corgs rc = torgs t).
Proof.
  intros Hff. induction t as [e kids IH] using tree_ind'. intros Hu Hr rc Hs Hd.
  pose proof (udom_kids c e kids Hu) as Huk. pose proof (registered_kids c e kids Hr) as Hrk.
  destruct Hu as [Hue _]. destruct Hr as [Hre _].
  rewrite torgs_unfold.
  assert (Hkids : forall cs, map cshape cs = map tshape kids -> Forall (cdefs_ok c) cs -> flat_map corgs cs = flat_map torgs kids).
  { intros cs Hmap Hok. apply (flat_map_eq2 _ _ _ _ _ Hok). apply Forall2_map_eq in Hmap.
    apply (Forall2_impl_r _ _ _ _ _ (Forall_and (Forall_and IH Huk) Hrk) Hmap).
    intros x kid [[Hih H2] H3] Hx Hcx. now apply Hih. }
  cbn [tshape] in Hs. destruct (is_errdef_error e) eqn:Ee.
  - destruct (errdef_node_orgs e Ee) as [de [Ede Eno]]. rewrite Eno.
    (* the kind of an errdef node of the domain is registered, "" is not: only an errdef error has its shape *)
    assert (Hk0 : e_kind e <> "") by (intros Q; rewrite Q, (foreign_unregistered c Hff) in Hue; now apply Hue).
    destruct rc as [[d m ty un st cs]|d|id|m ty cs]; [|cbn in Hs; inversion Hs; congruence..].
    cbn [cshape] in Hs. rewrite rshape_unfold in Hs. injection Hs as E1 E2 E3 E4 E5.
    cbn [corgs]. rewrite rorgs_unfold. destruct Hd as [[k Hk] Hcs]. apply fix_and_Forall in Hcs.
    pose proof (resolve_u_kind c k d Hff Hk) as Kk. rewrite E2 in Kk. subst k.
    rewrite (Hre d de Hk Ede). cbn [app]. f_equal. now apply Hkids.
  - destruct Hue as [Hty Hnd]. rewrite (foreign_node_orgs e Ee Hnd). cbn [app].
    destruct rc as [[d m ty un st cs]|d|id|m ty cs]; [cbn in Hs; inversion Hs; congruence..|].
    rewrite cshape_unknown in Hs. injection Hs as E1 E2 E3. rewrite corgs_unknown.
    apply fix_and_Forall in Hd. now apply Hkids.
Qed.

Theorem roundtrip_identity c tbl unks e :
  foreign_fails c -> is_errdef_error e = true -> mdom (tree_of e) -> udom c (tree_of e) -> registered c (tree_of e) ->
  exists doc r, marshal_error e = Ok doc /\ unmarshal c (fst (decode tbl doc unks)) = UOk r /\
                rshape r = tshape (tree_of e) /\ rorgs r = torgs (tree_of e).
Proof.
  intros Hf He Hm Hu Hr. destruct (roundtrip_structure c tbl unks e Hf He Hm Hu) as [doc [r [Em [Eu Sr]]]].
  exists doc, r. repeat split; try assumption.
  apply (orgs_restored c Hf (tree_of e) Hu Hr (RCErr r)); [exact Sr|].
  cbn [cdefs_ok]. apply (proj1 (unmarshal_defs_from_resolver c (fst (decode tbl doc unks))) r). exact Eu.
Qed.

(* errors.Is on the restored value: embed it into the error universe of Model/Core.v. Addresses (0)
   and the texts of a sentinel ("") are placeholders: errors.Is against a definition looks at origins
   only (C01Proofs.is_iff_origin) *)
Definition no_rf : rfields := {| rf_typed := []; rf_unknown := [] |}.
Fixpoint err_of_rerr (r : rerr) : err :=
  match r with
  | RErr d m _ _ st cs => ERest 0 (ud_def d) m no_rf st ((fix go (l : list rcause) : list err := match l with [] => [] | x :: t => err_of_rcause x :: go t end) cs)
  end
with err_of_rcause (x : rcause) : err :=
  match x with
  | RCErr e => err_of_rerr e
  | RCDef d => EDefn (ud_def d)
  | RCSentinel id => ELeaf id "" ""
  | RCUnknown m t cs => EUnk 0 m t ((fix go (l : list rcause) : list err := match l with [] => [] | x :: t => err_of_rcause x :: go t end) cs)
  end.

Lemma err_of_rcauses_map cs : (fix go (l : list rcause) : list err := match l with [] => [] | x :: t => err_of_rcause x :: go t end) cs = map err_of_rcause cs.
Proof. induction cs; cbn; [reflexivity|]. now f_equal. Qed.

(* rerr and rcause are mutual and nest through the list of causes; the generated induction scheme has
   no hypothesis for that list, hence a mutual Fixpoint with the induction on the list inside *)
Fixpoint reach_orgs_r (r : rerr) : flat_map node_orgs (reach (err_of_rerr r)) = rorgs r
with reach_orgs_c (x : rcause) : flat_map node_orgs (reach (err_of_rcause x)) = corgs x.
Proof.
  - destruct r as [d m ty un st cs]. cbn [err_of_rerr]. rewrite err_of_rcauses_map, rorgs_unfold. cbn [reach flat_map node_orgs node_org app].
    f_equal. induction cs as [|x t IH]; cbn; [reflexivity|]. rewrite flat_map_app, reach_orgs_c. now f_equal.
  - destruct x as [e|d|id|m t cs].
    + cbn [err_of_rcause corgs]. apply reach_orgs_r.
    + reflexivity.
    + reflexivity.
    + cbn [err_of_rcause]. rewrite err_of_rcauses_map, corgs_unknown. cbn [reach flat_map node_orgs node_org app].
      induction cs as [|x r IH]; cbn; [reflexivity|]. rewrite flat_map_app, reach_orgs_c. now f_equal.
Qed.

Lemma existsb_has_org o l : existsb (has_org o) l = existsb (fun x => Nat.eqb x o) (flat_map node_orgs l).
Proof.
  induction l as [|n r IH]; [reflexivity|]. cbn [existsb flat_map]. rewrite existsb_app, <- IH. f_equal.
  unfold has_org, node_orgs. destruct (node_org n); cbn; [now rewrite orb_false_r|reflexivity].
Qed.

Theorem restored_is ds r D : consistent ds -> In D ds -> defs_within ds (err_of_rerr r) ->
  errors_is (err_of_rerr r) (EDefn D) = existsb (fun x => Nat.eqb x (d_org D)) (rorgs r).
Proof.
  intros Hc HD Hw. rewrite (is_iff_origin ds _ D Hc HD Hw). unfold spec_is.
  now rewrite existsb_has_org, reach_orgs_r.
Qed.
