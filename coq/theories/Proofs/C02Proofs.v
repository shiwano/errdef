(* C02.  Nil in, nil out; Unwrap and messages of the five constructors by computation, Join's through
   ProgFacts.c_join_spec; [reach_sub c r] (what errors.Is visits from c it visits from r) gives reach_all;
   contract_sound ties the oracle's contract to the modelled statement, constructor by constructor. *)
From Errdef Require Import Base.Str Model.Core Model.GoErrors Model.Prog Check.C02 Proofs.ProgFacts.

Lemma recover_nil_iff s f c stk :
  fst (c_recover s f c stk) = None <-> exists n, eval_cb s c (s_next s) = (Normal None, n).
Proof.
  unfold c_recover. destruct (eval_cb s c (s_next s)) as [[r|v] n]; cbn; split.
  - intros ->. now exists n.
  - intros [n' E]. now inversion E.
  - discriminate.
  - intros [n' E]. discriminate.
Qed.

Lemma msg_recover a d v stk : err_msg (recovered a d v stk) = ("panic: " ++ pv_msg v)%string.
Proof. reflexivity. Qed.

Definition reach_sub (c r : err) : Prop := forall n, In n (reach c) -> In n (reach r).

Theorem reach_all c r t : reach_sub c r ->
  errors_is r c = true /\ (errors_is c t = true -> errors_is r t = true).
Proof.
  intros H. split; [|now apply errors_is_mono].
  apply (errors_is_mono c r c H). apply errors_is_self.
Qed.

Lemma join_nil_iff a d cs stk : c_join a d cs stk = None <-> forall x, In x cs -> x = None.
Proof.
  rewrite <- somes_nil_iff. pose proof (c_join_spec a d cs stk) as H.
  destruct (c_join a d cs stk); [split; [discriminate|now intros E]|tauto].
Qed.

Lemma unwrap_join a d cs stk e : c_join a d cs stk = Some e -> def_unwrap e = somes cs.
Proof. intros E. pose proof (c_join_spec a d cs stk) as H. rewrite E in H. apply H. Qed.

Lemma msg_join a d cs stk e : c_join a d cs stk = Some e -> err_msg e = join nl (map err_msg (somes cs)).
Proof. intros E. pose proof (c_join_spec a d cs stk) as H. rewrite E in H. apply H. Qed.

Theorem join_reaches a d cs stk e c : c_join a d cs stk = Some e -> In (Some c) cs -> reach_sub c e.
Proof. intros E Hin. pose proof (c_join_spec a d cs stk) as H. rewrite E in H. now apply H, in_somes. Qed.

Definition result_of (s : st) (x : stmt) : option err := last (s_errs (step s x)) None.

Theorem contract_sound s x isnil msg causes :
  contract s x = Some (isnil, msg, causes) ->
  match result_of s x with
  | None => isnil = true
  | Some e => isnil = false /\ err_msg e = msg /\ def_unwrap e = causes /\
              forall c, In c causes -> reach_sub c e
  end.
Proof.
  unfold result_of.
  destruct x as [| | | |f m stk|f fmt n ref stk|f c stk|f c ref stk|f cs stk| | | | | | |]; cbn [contract step];
    try discriminate; intros E; unfold add_err; cbn [s_errs]; rewrite last_last.
  - (* New *) injection E as <- <- <-. repeat split. intros c [].
  - (* Errorf *) injection E as <- <- <-. repeat split. intros c [].
  - (* Wrap *) destruct (get_err s c) as [e|]; injection E as <- <- <-; [|reflexivity].
    repeat split. intros c0 [<-|[]]. apply reach_cause.
  - (* Wrapf *) destruct (get_err s c) as [e|]; injection E as <- <- <-; [|reflexivity].
    repeat split. intros c0 [<-|[]]. apply reach_cause.
  - (* Join *) pose proof (c_join_spec (s_next s) (get_def s f) (map (get_err s) cs) stk) as H.
    destruct (c_join _ _ _ _); [destruct H as (N & U & M & R & _)|rewrite H in E; now injection E as <- _ _].
    destruct (somes _); [contradiction|]. injection E as <- <- <-. auto.
Qed.
