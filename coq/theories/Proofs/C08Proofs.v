(* C08: json.Marshal of an error mirrors its cause tree.  The field map the marshaler builds in iteration order
   (build_map: first occurrence fixes the place, the last value wins) is the specification's name_map, shown
   through its names and its lookup function [assoc]; then marshal_tree = spec_doc by tree induction (mirror),
   the link to the check, and three shapes of the document. *)
From Coq Require Import Sorting.Permutation.
From Errdef Require Import Base.Str Base.Outcome Model.Core Model.Tree0 Model.Json Check.Render Check.C08 Proofs.TreeFacts.

Lemma str_eqb_sym a b : str_eqb a b = str_eqb b a.
Proof. apply String.eqb_sym. Qed.

Lemma map_set_names n v m :
  map fst (map_set n v m) = if existsb (str_eqb n) (map fst m) then map fst m else map fst m ++ [n].
Proof.
  induction m as [|[n' v'] r IH]; cbn; [reflexivity|].
  destruct (str_eqb n' n) eqn:E.
  - apply str_eqb_eq in E. subst. cbn. now rewrite str_eqb_refl.
  - cbn. rewrite IH, (str_eqb_sym n n'), E. cbn. now destruct (existsb (str_eqb n) (map fst r)).
Qed.

Fixpoint assoc (n : string) (m : list (string * fval)) : option fval :=
  match m with [] => None | (n', v) :: r => if str_eqb n' n then Some v else assoc n r end.

Lemma map_set_assoc n v m n' :
  assoc n' (map_set n v m) = if str_eqb n n' then Some v else assoc n' m.
Proof.
  induction m as [|[k w] r IH]; cbn.
  - reflexivity.
  - destruct (str_eqb k n) eqn:E; cbn.
    + apply str_eqb_eq in E. subst k. destruct (str_eqb n n'); reflexivity.
    + rewrite IH. destruct (str_eqb k n') eqn:F; [|reflexivity].
      apply str_eqb_eq in F. subst k. now rewrite str_eqb_sym, E.
Qed.

Lemma last_named_app n all x : last_named n (all ++ [x]) = if str_eqb (fst x) n then Some (snd x) else last_named n all.
Proof.
  induction all as [|[n' v] r IH]; cbn.
  - destruct x as [xn xv]. cbn. reflexivity.
  - rewrite IH. destruct (str_eqb (fst x) n); [reflexivity|]. reflexivity.
Qed.

Lemma map_eq_by_assoc (m : list (string * fval)) :
  NoDup (map fst m) -> m = map (fun n => (n, match assoc n m with Some v => v | None => dummy_fval end)) (map fst m).
Proof.
  induction m as [|[n v] r IH]; cbn; intros N; [reflexivity|]. inversion N as [|? ? Hn Hr]; subst.
  rewrite str_eqb_refl. f_equal. rewrite (IH Hr) at 1. apply map_ext_in. intros k Hk.
  destruct (str_eqb n k) eqn:E; [|reflexivity]. apply str_eqb_eq in E. subst. contradiction.
Qed.

Lemma build_map_spec all :
  map fst (build_map all) = first_names all /\ NoDup (map fst (build_map all)) /\
  forall n, assoc n (build_map all) = last_named n all.
Proof.
  unfold build_map, first_names. induction all as [|x r IH] using rev_ind; cbn.
  - repeat split; constructor.
  - rewrite !fold_left_app. cbn. destruct IH as [A [B C]]. repeat split.
    + rewrite map_set_names, A. reflexivity.
    + rewrite map_set_names. destruct (existsb (str_eqb (fst x)) _) eqn:E; [exact B|].
      apply (Permutation_NoDup (Permutation_cons_append _ _)). constructor; [|exact B]. intros Hin.
      assert (existsb (str_eqb (fst x)) (map fst (fold_left (fun m nv => map_set (fst nv) (snd nv) m) r [])) = true).
      { apply existsb_exists. exists (fst x). split; [exact Hin|apply str_eqb_refl]. }
      congruence.
    + intros n. rewrite map_set_assoc, last_named_app, C. reflexivity.
Qed.

Lemma build_map_is_name_map all : build_map all = name_map all.
Proof.
  destruct (build_map_spec all) as [A [B C]]. rewrite (map_eq_by_assoc _ B), A. unfold name_map.
  apply map_ext. intros n. now rewrite C.
Qed.

Lemma fields_json_spec all :
  out_doc (fields_json all) = option_map JObj (spec_fields all).
Proof.
  unfold fields_json, spec_fields. rewrite build_map_is_name_map.
  destruct (forallb _ (sort_names (name_map all))); reflexivity.
Qed.

Lemma seq_out_spec (kids : list tree) :
  Forall (fun k => out_doc (marshal_tree k) = spec_doc k) kids ->
  match seq_out (map marshal_tree kids) with Ok js => Some js | _ => None end
  = (fix go (l : list tree) : option (list json) :=
       match l with
       | [] => Some []
       | k :: r => match spec_doc k, go r with Some j, Some js => Some (j :: js) | _, _ => None end
       end) kids.
Proof.
  induction 1 as [|k r Hk _ IH]; [reflexivity|]. cbn [map seq_out]. rewrite <- Hk, <- IH.
  destruct (marshal_tree k); [destruct (seq_out _)|..]; reflexivity.
Qed.

Theorem mirror : forall t, out_doc (marshal_tree t) = spec_doc t.
Proof.
  induction t as [e kids IH] using tree_ind'. cbn [marshal_tree spec_doc]. rewrite <- (seq_out_spec kids IH).
  destruct (is_errdef_error e); [|destruct (seq_out _); reflexivity].
  destruct (match e_def e with Some d => d_json d | None => None end); [reflexivity|].
  destruct (e_fields_all e) as [|x all']; [destruct (seq_out _); reflexivity|].
  pose proof (fields_json_spec (x :: all')) as Hf.
  destruct (fields_json (x :: all')) as [fj|c|w], (spec_fields (x :: all')) as [fl|]; cbn in Hf; try discriminate;
    [injection Hf as ->|..]; try destruct (seq_out (map marshal_tree kids)); reflexivity.
Qed.

Theorem corr_implies_ok_doc s given o : corr1 s given o = true -> o_same3 o = true -> ok1 s given o = true.
Proof.
  unfold corr1, ok1. intros H ->. destruct (subject_err s given (o_subject o)) as [e|]; [|discriminate].
  unfold marshal_error in H. now rewrite <- mirror.
Qed.

Theorem omits_empty e :
  is_errdef_error e = true -> (match e_def e with Some d => d_json d | None => None end) = None ->
  e_kind e = "" -> e_fields_all e = [] -> e_stack e = [] -> unwrap_tree e = [] ->
  marshal_error e = Ok (JObj [("message", JStr (err_msg e))]).
Proof.
  unfold marshal_error, unwrap_tree. intros He Hj Hk Hf Hs Hc. destruct (tree_of e) as [e' kids] eqn:T.
  assert (e' = e) by (destruct e; cbn in T; inversion T; reflexivity). subst e'. cbn in Hc. subst kids.
  cbn [marshal_tree map seq_out]. rewrite He, Hj, Hk, Hf, Hs. reflexivity.
Qed.

Theorem custom_marshaler_local e id kids :
  is_errdef_error e = true -> (match e_def e with Some d => d_json d | None => None end) = Some id ->
  marshal_tree (T e kids) = Ok (custom_json id (err_msg e)).
Proof. intros He Hj. cbn [marshal_tree]. now rewrite He, Hj. Qed.

Theorem foreign_node_shape e kids cs :
  is_errdef_error e = false -> seq_out (map marshal_tree kids) = Ok cs ->
  marshal_tree (T e kids) = Ok (JObj ([("message", JStr (err_msg e)); ("type", JStr (type_name e))]
                                      ++ (match cs with [] => [] | _ => [("causes", JArr cs)] end))).
Proof. intros He Hc. cbn [marshal_tree]. now rewrite He, Hc. Qed.
