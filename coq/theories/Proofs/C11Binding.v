(* C11 at the level of a decoded field: which key a value binds to when several keys carry its name. *)
From Errdef Require Import Base.Str Base.Outcome Model.Convert Model.Unmarshal.
Import ListNotations.

(* the keys a decoded field of name n can bind to, in the order the code tries them: the definition's
   keys of that name in All() order, then the custom keys of that name in registration order *)
Definition cands (c : ucfg) (d : udef) (n : string) : list ukey :=
  (named n (ud_keys d) ++ named n (u_custom c))%list.

Definition declines (v : dval) (k : ukey) : Prop := try_convert (uk_ty k) v = Ok None.
Definition accepts (v : dval) (k : ukey) (b : bval) : Prop := try_convert (uk_ty k) v = Ok (Some b).

Lemma first_convert_app l1 l2 v :
  first_convert (l1 ++ l2) v = match first_convert l1 v with Ok None => first_convert l2 v | r => r end.
Proof.
  induction l1 as [|k l1 IH]; cbn [app first_convert]; [reflexivity|].
  destruct (try_convert (uk_ty k) v) as [[b|]|cl|w]; try reflexivity. exact IH.
Qed.

Lemma first_convert_none l v : first_convert l v = Ok None <-> Forall (declines v) l.
Proof.
  induction l as [|k l IH]; cbn [first_convert]; [split; constructor|].
  unfold declines in *. rewrite Forall_cons_iff, <- IH.
  destruct (try_convert (uk_ty k) v) as [[b'|]|cl|w]; try (split; [discriminate|intros [[=] _]]).
  split; [auto|now intros [_ H]].
Qed.

Lemma first_convert_some l v key b :
  first_convert l v = Ok (Some (key, b)) <->
  exists l1 l2, l = (l1 ++ key :: l2)%list /\ Forall (declines v) l1 /\ accepts v key b.
Proof.
  split.
  - revert key b. induction l as [|k l IH]; cbn [first_convert]; intros key b H; [discriminate|].
    destruct (try_convert (uk_ty k) v) as [[b'|]|cl|w] eqn:E; try discriminate.
    + inversion H; subst. exists [], l. repeat split; [constructor|exact E].
    + destruct (IH _ _ H) as [l1 [l2 [-> [F A]]]]. exists (k :: l1), l2. repeat split; [constructor; assumption|exact A].
  - intros [l1 [l2 [-> [F A]]]]. rewrite first_convert_app, (proj2 (first_convert_none l1 v) F).
    cbn [first_convert]. unfold accepts in A. now rewrite A.
Qed.

Lemma bind_field_cands c d k n v :
  bind_field c d k n v =
  if is_placeholder v then FUnknown (DS {| s_id := 1; s_kind := KString |} (SStr redacted_str))
  else match first_convert (cands c d n) v with
       | Ok (Some (key, b)) => FTyped key b
       | Fail _ => FFail {| fl_class := cls_internal; fl_kind := ""; fl_field := "" |}
       | Panic w => FPanic w
       | Ok None => if u_strict c then FFail {| fl_class := cls_field; fl_kind := k; fl_field := n |} else FUnknown v
       end.
Proof.
  unfold bind_field, cands. rewrite first_convert_app.
  destruct (first_convert (named n (ud_keys d)) v) as [[[key b]|]|cl|w]; reflexivity.
Qed.

Theorem bound_iff c d k n v key b :
  bind_field c d k n v = FTyped key b <->
  is_placeholder v = false /\
  exists l1 l2, cands c d n = (l1 ++ key :: l2)%list /\ Forall (declines v) l1 /\ accepts v key b.
Proof.
  rewrite bind_field_cands, <- first_convert_some.
  destruct (is_placeholder v); [split; [discriminate|now intros [? _]]|].
  destruct (first_convert (cands c d n) v) as [[[key' b']|]|cl|w]; try destruct (u_strict c);
    (split; [intros [= -> ->] || discriminate|intros [_ [= -> ->]] || (intros [_ ?]; discriminate)]); auto.
Qed.

Theorem bound_is_first_accepting c d k n v key b :
  bind_field c d k n v = FTyped key b ->
  exists l1 l2, cands c d n = (l1 ++ key :: l2)%list /\ Forall (declines v) l1 /\ accepts v key b.
Proof. now intros [_ H]%bound_iff. Qed.

Theorem accepted_is_bound c d k n v l1 key l2 b :
  is_placeholder v = false ->
  cands c d n = (l1 ++ key :: l2)%list -> Forall (declines v) l1 -> accepts v key b ->
  bind_field c d k n v = FTyped key b.
Proof. intros Hp E F A. apply bound_iff. eauto 6. Qed.

Theorem unbound_was_declined_by_all c d k n v :
  is_placeholder v = false ->
  (bind_field c d k n v = FUnknown v \/
   bind_field c d k n v = FFail {| fl_class := cls_field; fl_kind := k; fl_field := n |}) ->
  Forall (declines v) (cands c d n).
Proof.
  intros Hp H. rewrite bind_field_cands, Hp in H. apply first_convert_none.
  destruct (first_convert (cands c d n) v) as [[[key' b']|]|cl|w]; try reflexivity;
    destruct H as [H|H]; try discriminate.
Qed.

Theorem all_declined_is_unknown_or_strict_failure c d k n v :
  is_placeholder v = false -> Forall (declines v) (cands c d n) ->
  bind_field c d k n v =
  if u_strict c then FFail {| fl_class := cls_field; fl_kind := k; fl_field := n |} else FUnknown v.
Proof. intros Hp F. now rewrite bind_field_cands, Hp, (proj2 (first_convert_none _ v) F). Qed.
