(* C19: slog values.  A log value is a list of optional one-attribute blocks; an attribute is looked up block by
   block (find_app_r).  error_group and node_full_subtree read the groups of Model/Slog.v off that way;
   the link to the check compares an observed group with the model's by keys and attributes (sv_eqb_group). *)
From Errdef Require Import Base.Str Base.ListFacts Model.Core Model.Tree0 Model.Slog Check.Render Check.C19.

Lemma group_eqb_keys l1 l2 : sv_eqb (SVGroup l1) (SVGroup l2) = true ->
  list_eqb str_eqb (map fst l1) (map fst l2) = true /\
  forall k, option_eqb sv_eqb (option_map snd (find (fun a => str_eqb (fst a) k) l1))
                              (option_map snd (find (fun a => str_eqb (fst a) k) l2)) = true.
Proof.
  cbn [sv_eqb]. revert l2. induction l1 as [|[k1 x] r1 IH]; intros [|[k2 y] r2] H; try discriminate.
  - split; [reflexivity|]. intros k. reflexivity.
  - apply andb_true_iff in H as [H Hr]. apply andb_true_iff in H as [Hk Hx].
    destruct (IH r2 Hr) as [A B]. split.
    + cbn. now rewrite Hk, A.
    + intros k. cbn. apply str_eqb_eq in Hk. subst k2. destruct (str_eqb k1 k); [exact Hx|apply B].
Qed.

Lemma sv_eqb_group o v : sv_eqb o v = true ->
  list_eqb str_eqb (keys_of o) (keys_of v) = true /\ forall k, option_eqb sv_eqb (attr k o) (attr k v) = true.
Proof. destruct o, v; try discriminate; try (split; reflexivity). apply group_eqb_keys. Qed.

Lemma find_app_l {A} (p : A -> bool) l1 l2 x : find p l1 = Some x -> find p (l1 ++ l2) = Some x.
Proof. intros H. now rewrite find_app, H. Qed.
Lemma find_app_r {A} (p : A -> bool) l1 l2 : find p l1 = None -> find p (l1 ++ l2) = find p l2.
Proof. intros H. now rewrite find_app, H. Qed.

(* The message block comes first and is passed by computation.  [skip c] moves the lookup of a
   key past the next block, which is empty or holds another key according to [c]. *)
Ltac skip c := rewrite find_app_r by now destruct c.

Theorem error_group e :
  (match e_def e with Some d => d_log d | None => None end) = None ->
  keys_of (log_value e) =
    ["message"] ++ (if str_eqb (e_kind e) "" then [] else ["kind"])
                ++ (match e_fields_all e with [] => [] | _ => ["fields"] end)
                ++ (match e_stack e with [] => [] | _ => ["origin"] end) /\
  attr "message" (log_value e) = Some (SVStr (err_msg e)) /\
  (str_eqb (e_kind e) "" = false -> attr "kind" (log_value e) = Some (SVStr (e_kind e))) /\
  (e_fields_all e <> [] -> attr "fields" (log_value e) = Some (fields_sv (e_fields_all e))) /\
  (forall f r, e_stack e = f :: r -> attr "origin" (log_value e) = Some (frame_sv f)) /\
  attr "stack" (log_value e) = None /\ attr "causes" (log_value e) = None.
Proof.
  intros Hl. unfold log_value. rewrite Hl. cbn. repeat split.
  - rewrite !map_app. repeat f_equal;
      [now destruct (str_eqb (e_kind e) "")|now destruct (e_fields_all e)|now destruct (e_stack e)].
  - intros ->. reflexivity.
  - intros Hf. skip (str_eqb (e_kind e) ""). destruct (e_fields_all e); [congruence|reflexivity].
  - intros f r ->. skip (str_eqb (e_kind e) ""). skip (e_fields_all e). reflexivity.
  - skip (str_eqb (e_kind e) ""). skip (e_fields_all e). now destruct (e_stack e).
  - skip (str_eqb (e_kind e) ""). skip (e_fields_all e). now destruct (e_stack e).
Qed.

Theorem valuer_local e id :
  (match e_def e with Some d => d_log d | None => None end) = Some id -> log_value e = custom_log id (err_msg e).
Proof. intros H. unfold log_value. now rewrite H. Qed.

Theorem node_full_subtree e kids :
  exists attrs, node_log_value (T e kids) = SVGroup attrs /\
  option_map snd (find (fun a => str_eqb (fst a) "message") attrs) = Some (SVStr (err_msg e)) /\
  (kids <> [] ->
   option_map snd (find (fun a => str_eqb (fst a) "causes") attrs)
   = Some (SVList (map (fun k => match node_log_value k with SVGroup a => SVMap (to_map a) | o => o end) kids))) /\
  (is_errdef_error e = true -> e_stack e <> [] ->
   option_map snd (find (fun a => str_eqb (fst a) "stack") attrs) = Some (SVFrames (e_stack e))).
Proof.
  cbn [node_log_value]. destruct (is_errdef_error e); eexists; (split; [reflexivity|]); cbn; repeat split.
  - intros Hk. skip (str_eqb (e_kind e) ""). skip (e_fields_all e). skip (e_stack e).
    destruct kids; [congruence|reflexivity].
  - intros _ Hs. skip (str_eqb (e_kind e) ""). skip (e_fields_all e). destruct (e_stack e); [congruence|reflexivity].
  - intros Hk. destruct kids; [congruence|reflexivity].
  - discriminate.
Qed.

Theorem corr_implies_ok s given o : corr1 s given o = true -> ok1 s given o = true.
Proof.
  unfold corr1, ok1. destruct (subject_err s given (o_subject o)) as [e|]; [|discriminate].
  unfold model_obs. intros H. rewrite !andb_true_iff in H. destruct H as [[[He Hn] Hs] Hh]. rewrite Hs, Hn, !andb_true_r.
  destruct (match e_def e with Some d => d_log d | None => None end) as [id|] eqn:El.
  - now rewrite <- (valuer_local e id El).
  - (* the observed group has the keys and attributes of [log_value e], which [error_group] lists *)
    destruct (sv_eqb_group _ _ He) as [Ks As], (error_group e El) as (K & M & Kd & F & O & _).
    rewrite <- K, Ks, <- M, As. cbn [andb]. repeat (apply andb_true_iff; split).
    + destruct (str_eqb (e_kind e) ""); [reflexivity|]. rewrite <- Kd by reflexivity. apply As.
    + unfold fields_sv in F. destruct (e_fields_all e); [reflexivity|]. rewrite <- F by discriminate. apply As.
    + destruct (e_stack e) as [|f r]; [reflexivity|]. rewrite Hh, andb_true_r, <- (O f r eq_refl). apply As.
Qed.
