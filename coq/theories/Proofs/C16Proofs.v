(* C16 proofs: invariants of the interleaved run (Model/Conc.v) and the audit of
   the source-derived effects (Gen/Effects.v). *)
From Errdef Require Import Base.Str Base.ListFacts Model.Prog Model.Conc Gen.Effects Spec.EffectsAudit Check.C16 Proofs.ProgFacts Proofs.C04Proofs.
Local Open Scope string_scope.
Local Open Scope list_scope.

Lemma run_sched_app fs base w s1 s2 :
  run_sched fs base w (s1 ++ s2) = run_sched fs base (run_sched fs base w s1) s2.
Proof. unfold run_sched. apply fold_left_app. Qed.

Lemma nth_error_replace_nth {A} (x : A) l : forall n k,
  nth_error (replace_nth n x l) k
  = if Nat.eqb k n then match nth_error l n with Some _ => Some x | None => None end else nth_error l k.
Proof.
  induction l as [|y r IH]; intros n k; simpl.
  - destruct n, k; simpl; try reflexivity; destruct (Nat.eqb k n); reflexivity.
  - destruct n as [|n], k as [|k]; simpl; try reflexivity. apply IH.
Qed.

Lemma init_threads_m sh m0 progs tid th :
  nth_error (w_threads (init_world sh m0 progs)) tid = Some th ->
  exists p, nth_error progs tid = Some p /\ th = init_thread sh p.
Proof.
  simpl. intros H. rewrite nth_error_map in H. destruct (nth_error progs tid); inversion H; eauto.
Qed.

Lemma init_threads sh progs tid th :
  nth_error (w_threads (init_world sh memo0 progs)) tid = Some th ->
  exists p, nth_error progs tid = Some p /\ th = init_thread sh p.
Proof. apply init_threads_m. Qed.

Section Lift.
  Variables (fs : fsys) (sh : st).
  Variable Pm : memo -> Prop.
  Variable Pt : nat -> thread -> Prop.
  Variable Pe : event -> Prop.
  Hypothesis Hstep : forall tid m th m' th' acc,
    Pm m -> Pt tid th -> tstep fs tid (s_next sh) m th = (m', th', acc) ->
    Pm m' /\ Pt tid th' /\ Forall (fun a => Pe (tid, a)) acc.

  Definition winv (w : world) : Prop :=
    Pm (w_memo w) /\ (forall tid th, nth_error (w_threads w) tid = Some th -> Pt tid th) /\ Forall Pe (w_trace w).

  Lemma tick_winv : forall w t, winv w -> winv (tick fs (s_next sh) w t).
  Proof.
    intros w t (Hm & Ht & He). unfold tick.
    destruct (nth_error (w_threads w) t) as [th|] eqn:E; [|now repeat split].
    destruct (tstep fs t (s_next sh) (w_memo w) th) as [[m' th'] acc] eqn:S.
    destruct (Hstep t _ _ _ _ _ Hm (Ht _ _ E) S) as (Hm' & Ht' & Ha).
    repeat split; simpl; auto.
    - intros tid th0 H. rewrite nth_error_replace_nth in H.
      destruct (Nat.eqb_spec tid t) as [->|]; [rewrite E in H; now injection H as <-|now apply Ht].
    - apply Forall_app. split; [exact He|now apply Forall_map].
  Qed.

  Lemma conc_winv m0 progs sched :
    Pm m0 -> (forall tid p, nth_error progs tid = Some p -> Pt tid (init_thread sh p)) ->
    winv (conc_run fs sh m0 progs sched).
  Proof.
    intros H0 Ht. unfold conc_run. apply (fold_left_inv _ winv tick_winv). repeat split; [exact H0| |constructor].
    intros tid th E. apply init_threads_m in E as (p & E & ->). now apply Ht.
  Qed.
End Lift.

Definition op_result (s : st) (o : op) : option result :=
  match o with
  | OStmt x => Some (stmt_result (step s x) x)
  | OQuery q => Some (eval_query s q)
  | ORender _ _ => None
  end.

Section View.
  Variables (fs : fsys) (tid : nat) (base : N) (m : memo) (th : thread).

  (* the lines a micro-step on request [rq] has in hand without asking the file system: cached
     ones, or the ones the scanner loop has just read *)
  Inductive held (rs : rstate) (rq : req) (ls : list string) : Prop :=
  | Hcached : cache_get (rq_path rq) (m_cache m) = Some ls -> held rs rq ls
  | Hread : r_pc rs = PPut ls -> held rs rq ls.

  Inductive memo_step (rs : rstate) (rq : req) : memo -> Prop :=
  | MSsame : memo_step rs rq m
  | MSmark b : memo_step rs rq (mark m b)
  | MSput ls : held rs rq ls -> memo_step rs rq (put m (rq_path rq) ls).

  (* The cases of [tstep]: a rendering in progress returns ([TVdone]) or takes a micro-step on its first
     request, which goes on at another program counter ([TVnext]) or is answered ([TVfin]). *)
  Inductive tstep_view : memo * thread * list access -> Prop :=
  | TVdone rs : th_rs th = Some rs -> r_reqs rs = [] ->
      tstep_view (m, complete th (th_st th) (RSnips (r_done rs)), [])
  | TVnext rs rq rest ms m' p : th_rs th = Some rs -> r_reqs rs = rq :: rest -> memo_step rs rq m' ->
      match p with PPut ls => fs (rq_path rq) = Present ls | _ => True end ->
      tstep_view (m', set_pc th rs p, mstep_accesses ms)
  | TVfin rs rq rest ms m' snip : th_rs th = Some rs -> r_reqs rs = rq :: rest -> memo_step rs rq m' ->
      snip = [] \/ (exists ls, held rs rq ls /\ snip = window ls (rq_line rq) (rq_around rq)) ->
      tstep_view (m', finish_req th rs rq snip, mstep_accesses ms)
  | TVidle : tstep_view (m, th, [])
  | TVstmt x rest : th_ops th = OStmt x :: rest ->
      tstep_view (m, complete th (step (th_st th) x) (stmt_result (step (th_st th) x) x),
                  reads tid base (stmt_reads (th_st th) x)
                  ++ writes tid base (fresh_addrs (s_next (th_st th)) (s_next (step (th_st th) x))))
  | TVquery q rest : th_ops th = OQuery q :: rest ->
      tstep_view (m, complete th (th_st th) (eval_query (th_st th) q), reads tid base (query_reads (th_st th) q))
  | TVrender e rs rest : th_ops th = ORender e rs :: rest ->
      tstep_view (m, set_rs th {| r_reqs := rs; r_pc := PCheck; r_done := [] |},
                  reads tid base (oerr_addrs (th_st th) (Some e))).

  Lemma tstep_spec : tstep_view (tstep fs tid base m th).
  Proof.
    unfold tstep. destruct (th_rs th) as [rs|] eqn:RS.
    - destruct (r_reqs rs) as [|rq rest] eqn:RQ; [now apply TVdone|].
      (* every branch of a program counter is one micro-step: TVnext or TVfin *)
      destruct (r_pc rs) as [| | |[|]| |ls] eqn:PC;
        repeat match goal with |- context [match ?e with _ => _ end] => destruct e eqn:? end;
        (eapply TVnext + eapply TVfin); eauto 6 using memo_step, held.
    - destruct (th_ops th) as [|[x|q|e rs] r] eqn:OPS; econstructor; eauto.
  Qed.
End View.

(* The invariant behind race freedom, per traced access: a private address belongs to the goroutine that
   touches it, a shared object is only read, and the two package variables of stack.go are touched under
   their own mutex (the names are those of Gen/Effects.lock_sites), exclusively when written. *)
Definition access_safe (e : event) : Prop :=
  match ac_addr (snd e) with
  | APriv t' _ => t' = fst e
  | AShared _ => ac_rw (snd e) = Rd
  | AAvail => ac_locks (snd e) = [{| lk_mu := "sourceAvailableMu"; lk_excl := true |}]
  | ACache => exists x, ac_locks (snd e) = [{| lk_mu := "sourceFileCacheMu"; lk_excl := x |}]
                        /\ (ac_rw (snd e) = Wr -> x = true)
  end.

(* the lock tags srcgen extracted from stack.go protect every micro-step *)
Lemma mstep_ok t ms : Forall (fun a => access_safe (t, a)) (mstep_accesses ms).
Proof.
  destruct ms; vm_compute; repeat constructor; try (eexists; split; [reflexivity|]); try discriminate; auto.
Qed.

Local Opaque mstep_accesses.

Lemma reads_ok t base l : Forall (fun a => access_safe (t, a)) (reads t base l).
Proof.
  apply Forall_forall. intros a H. apply in_map_iff in H as (x & <- & _).
  unfold access_safe, cls; simpl. destruct (N.ltb x base); reflexivity.
Qed.

Lemma writes_ok t base l :
  (forall a, In a l -> (base <= a)%N) -> Forall (fun a => access_safe (t, a)) (writes t base l).
Proof.
  intros Hl. apply Forall_forall. intros a H. apply in_map_iff in H as (x & <- & Hin).
  unfold access_safe, cls; simpl. apply Hl in Hin. apply N.ltb_ge in Hin. now rewrite Hin.
Qed.

Lemma fresh_addrs_ge from upto a : In a (fresh_addrs from upto) -> (from <= a)%N.
Proof. unfold fresh_addrs. intros H. apply in_map_iff in H as (k & <- & _). lia. Qed.

Lemma step_next_mono s x : (s_next s <= s_next (step s x))%N.
Proof. destruct (step_cases s x); cbn; lia. Qed.

(* a goroutine allocates above the shared state, so it writes only addresses of its own *)
Lemma tstep_no_conflict fs base tid m th m' th' acc :
  (base <= s_next (th_st th))%N -> tstep fs tid base m th = (m', th', acc) ->
  (base <= s_next (th_st th'))%N /\ Forall (fun a => access_safe (tid, a)) acc.
Proof.
  (* only a statement moves the allocation counter; the other cases trace micro-step accesses, reads or nothing *)
  intros Hb. destruct (tstep_spec fs tid base m th) as [| | | |x rest _| |]; intros [= <- <- <-];
    try (split; [exact Hb|]; (apply mstep_ok || apply reads_ok || constructor)).
  pose proof (step_next_mono (th_st th) x). split; [cbn; lia|].
  apply Forall_app. split; [apply reads_ok|]. apply writes_ok.
  intros a Ha. apply fresh_addrs_ge in Ha. lia.
Qed.

Lemma trace_safe fs sh m0 progs sched :
  Forall access_safe (w_trace (conc_run fs sh m0 progs sched)).
Proof.
  apply (conc_winv fs sh (fun _ => True) (fun _ th => (s_next sh <= s_next (th_st th))%N) access_safe);
    [|exact I|intros; apply N.le_refl].
  intros tid m th m' th' acc _ B S. split; [exact I|]. exact (tstep_no_conflict _ _ _ _ _ _ _ _ B S).
Qed.

Lemma access_safe_protected t1 a1 t2 a2 :
  access_safe (t1, a1) -> access_safe (t2, a2) -> t1 <> t2 -> ac_addr a1 = ac_addr a2 ->
  ac_rw a1 = Wr \/ ac_rw a2 = Wr ->
  exists k1 k2, In k1 (ac_locks a1) /\ In k2 (ac_locks a2) /\ lk_mu k1 = lk_mu k2
                /\ (lk_excl k1 = true \/ lk_excl k2 = true).
Proof.
  unfold access_safe; simpl. intros H1 H2 Hne Ha Hw. rewrite <- Ha in H2.
  destruct (ac_addr a1).
  - destruct Hw as [Hw|Hw]; congruence.
  - congruence.
  - rewrite H1, H2. do 2 eexists. split; [now left|]. split; [now left|]. split; [reflexivity|now left].
  - destruct H1 as (x1 & L1 & W1), H2 as (x2 & L2 & W2). rewrite L1, L2.
    do 2 eexists. split; [now left|]. split; [now left|]. split; [reflexivity|]. simpl. destruct Hw; auto.
Qed.

Theorem no_conflict : forall fs sh m0 progs sched t1 a1 t2 a2,
  let tr := w_trace (conc_run fs sh m0 progs sched) in
  In (t1, a1) tr -> In (t2, a2) tr ->
  t1 <> t2 -> ac_addr a1 = ac_addr a2 -> (ac_rw a1 = Wr \/ ac_rw a2 = Wr) ->
  exists k1 k2, In k1 (ac_locks a1) /\ In k2 (ac_locks a2) /\ lk_mu k1 = lk_mu k2
                /\ (lk_excl k1 = true \/ lk_excl k2 = true).
Proof.
  intros fs sh m0 progs sched t1 a1 t2 a2 tr H1 H2.
  pose proof (trace_safe fs sh m0 progs sched) as F. rewrite Forall_forall in F.
  apply access_safe_protected; now apply F.
Qed.

Lemma addr_eqb_eq a b : addr_eqb a b = true -> a = b.
Proof.
  destruct a, b; simpl; try discriminate; intros H; auto.
  - apply N.eqb_eq in H. now subst.
  - apply andb_true_iff in H as [H1 H2]. apply Nat.eqb_eq in H1. apply N.eqb_eq in H2. now subst.
Qed.

Lemma access_safe_conflictb e1 e2 : access_safe e1 -> access_safe e2 -> conflictb e1 e2 = false.
Proof.
  destruct e1 as [t1 a1], e2 as [t2 a2]. intros H1 H2. unfold conflictb; simpl.
  destruct (Nat.eqb t1 t2) eqn:T; [reflexivity|simpl]. apply Nat.eqb_neq in T.
  destruct (addr_eqb (ac_addr a1) (ac_addr a2)) eqn:A; [simpl|reflexivity]. apply addr_eqb_eq in A.
  destruct (rw_eqb (ac_rw a1) Wr || rw_eqb (ac_rw a2) Wr) eqn:W; [simpl|reflexivity].
  assert (Hw : ac_rw a1 = Wr \/ ac_rw a2 = Wr).
  { apply orb_true_iff in W as [W|W]; [left|right]; destruct (ac_rw _); auto; discriminate. }
  destruct (access_safe_protected _ _ _ _ H1 H2 T A Hw) as (k1 & k2 & I1 & I2 & M & X).
  apply negb_false_iff. unfold protectedb. apply existsb_exists. exists k1. split; auto.
  apply existsb_exists. exists k2. split; auto. unfold protects. rewrite M, str_eqb_refl. simpl.
  destruct X as [-> | ->]; [reflexivity | apply orb_true_r].
Qed.

Theorem no_conflict_b : forall fs sh m0 progs sched,
  conflicts (w_trace (conc_run fs sh m0 progs sched)) = [].
Proof.
  intros. unfold conflicts.
  pose proof (trace_safe fs sh m0 progs sched) as F. rewrite Forall_forall in F.
  set (tr := w_trace _) in *.
  assert (G : forall l, (forall p, In p l -> In (fst p) tr /\ In (snd p) tr) ->
                        filter (fun p => conflictb (fst p) (snd p)) l = []).
  { induction l as [|p r IH]; simpl; intros Hl; auto.
    destruct (Hl p (or_introl eq_refl)) as [P1 P2].
    rewrite (access_safe_conflictb _ _ (F _ P1) (F _ P2)). apply IH. intros q Hq. apply Hl. now right. }
  apply G. intros [x y] Hp. apply in_prod_iff in Hp. exact Hp.
Qed.

Lemma run_alone_cons s o r : run_alone s (o :: r) = op_result s o :: run_alone (op_step s o) r.
Proof. now destruct o. Qed.

Lemma run_alone_length : forall ops s, List.length (run_alone s ops) = List.length ops.
Proof. induction ops as [|o r IH]; intros s; [reflexivity|]. rewrite run_alone_cons. cbn. now rewrite IH. Qed.

Lemma run_alone_app : forall a b s,
  run_alone s (a ++ b) = run_alone s a ++ run_alone (fold_left op_step a s) b.
Proof.
  induction a as [|o r IH]; intros b s; [reflexivity|]. cbn [app fold_left]. now rewrite !run_alone_cons, IH.
Qed.

(* a log entry (index, result) of a thread that has completed [done]: the index is that of a completed operation;
   a result other than snippets is what the goroutine alone returns there; snippets answer the requests of the
   rendering at that index, in order *)
Definition log_entry_sound (sh : st) (done : list op) (ir : nat * result) : Prop :=
  fst ir < List.length done
  /\ (is_snips (snd ir) = false -> nth_error (run_alone sh done) (fst ir) = Some (Some (snd ir)))
  /\ (forall l, snd ir = RSnips l -> exists e rs, nth_error done (fst ir) = Some (ORender e rs) /\ map fst l = rs).

(* [done] is what the thread has completed of its program; a rendering in progress belongs to
   the head of the rest and has its requests split into answered and open ones *)
Definition th_inv (sh : st) (prog : list op) (th : thread) : Prop :=
  exists done, prog = done ++ th_ops th /\ th_idx th = List.length done
    /\ th_st th = fold_left op_step done sh
    /\ (forall ir, In ir (th_log th) -> log_entry_sound sh done ir)
    /\ (forall rs, th_rs th = Some rs ->
          exists e rest, th_ops th = ORender e (map fst (r_done rs) ++ r_reqs rs) :: rest).

Lemma log_entry_sound_grow sh done o ir : log_entry_sound sh done ir -> log_entry_sound sh (done ++ [o]) ir.
Proof.
  intros (L & A & B). unfold log_entry_sound. rewrite app_length. simpl. repeat split.
  - lia.
  - intros H. rewrite run_alone_app, nth_error_app1; [auto|rewrite run_alone_length; lia].
  - intros l H. destruct (B l H) as (e & rs & N1 & M). exists e, rs. split; auto.
    rewrite nth_error_app1; auto.
Qed.

Lemma stmt_result_not_snips s x : is_snips (stmt_result s x) = false.
Proof. destruct x; reflexivity. Qed.
Lemma eval_query_not_snips s q : is_snips (eval_query s q) = false.
Proof. destruct q; simpl; unfold with_err; try reflexivity; destruct (get_err s (Some e)); reflexivity. Qed.

(* the head operation [o] returns [r]: the snippets of its requests, or what it returns alone *)
Lemma th_inv_complete sh prog th o rest r :
  th_inv sh prog th -> th_ops th = o :: rest ->
  (if is_snips r then exists e l, o = ORender e (map fst l) /\ r = RSnips l else op_result (th_st th) o = Some r) ->
  th_inv sh prog (complete th (op_step (th_st th) o) r).
Proof.
  intros (done & Hp & Hi & Hs & Hl & _) Ho A. exists (done ++ [o]). unfold complete; cbn. rewrite Ho in *. cbn.
  rewrite <- app_assoc, app_length, fold_left_app, Hs. repeat apply conj; cbn; auto; [lia| |discriminate].
  intros ir Hin. apply in_app_iff in Hin as [Hin|[<-|[]]]; [now apply log_entry_sound_grow, Hl|].
  unfold log_entry_sound; cbn. rewrite app_length, Hi, nth_error_app_len. split; [cbn; lia|].
  destruct (is_snips r) eqn:N.
  - destruct A as (e & l & -> & ->). split; [discriminate|]. intros ? [= <-]. cbn. eauto.
  - split; [|intros l ->; discriminate]. intros _.
    rewrite run_alone_app, <- (run_alone_length done sh), nth_error_app_len, run_alone_cons, <- Hs. cbn.
    now rewrite A.
Qed.

Lemma th_inv_set_rs sh prog th rs e rest :
  th_inv sh prog th -> th_ops th = ORender e (map fst (r_done rs) ++ r_reqs rs) :: rest ->
  th_inv sh prog (set_rs th rs).
Proof.
  intros (done & Hp & Hi & Hs & Hl & _) Ho. exists done. cbn. repeat apply conj; auto. intros ? [= <-]. eauto.
Qed.

Lemma tstep_th_inv fs base sh prog tid m th m' th' acc :
  th_inv sh prog th -> tstep fs tid base m th = (m', th', acc) -> th_inv sh prog th'.
Proof.
  intros I. pose proof I as (_ & _ & _ & _ & _ & Hr).
  destruct (tstep_spec fs tid base m th)
    as [rs RS RQ|rs rq rest ms m1 p RS RQ _ _|rs rq rest ms m1 snip RS RQ _ _| |x rest Ho|q rest Ho|e rs rest Ho];
    intros [= <- <- <-]; try destruct (Hr rs RS) as (e & ops & Ho).
  - (* TVdone *) rewrite RQ, app_nil_r in Ho. apply (th_inv_complete _ _ _ _ _ _ I Ho). cbn. eauto.
  - (* TVnext *) apply (th_inv_set_rs _ _ _ _ e ops I). exact Ho.
  - (* TVfin *) apply (th_inv_set_rs _ _ _ _ e ops I). cbn. now rewrite map_app, <- app_assoc, Ho, RQ.
  - (* TVidle *) exact I.
  - (* TVstmt *) apply (th_inv_complete _ _ _ _ _ _ I Ho). now rewrite stmt_result_not_snips.
  - (* TVquery *) apply (th_inv_complete _ _ _ _ _ _ I Ho). now rewrite eval_query_not_snips.
  - (* TVrender *) apply (th_inv_set_rs _ _ _ _ e rest I). exact Ho.
Qed.

Lemma threads_inv fs sh m0 progs sched tid th :
  nth_error (w_threads (conc_run fs sh m0 progs sched)) tid = Some th ->
  th_inv sh (nth tid progs []) th.
Proof.
  apply (conc_winv fs sh (fun _ => True) (fun tid th => th_inv sh (nth tid progs []) th) (fun _ => True)); [|exact I|].
  - intros t m t0 m' t' acc _ I S. repeat split; [eapply tstep_th_inv; eauto|apply Forall_I].
  - intros t p E. exists []. simpl. repeat apply conj; auto; [now apply nth_error_nth|intros ir []|discriminate].
Qed.

Theorem results_schedule_independent : forall fs sh m0 progs sched tid th i r,
  nth_error (w_threads (conc_run fs sh m0 progs sched)) tid = Some th ->
  In (i, r) (th_log th) -> is_snips r = false ->
  nth_error (run_alone sh (nth tid progs [])) i = Some (Some r).
Proof.
  intros fs sh m0 progs sched tid th i r E Hin Hs.
  destruct (threads_inv _ _ _ _ _ _ _ E) as (done & Hp & _ & _ & Hl & _).
  destruct (Hl _ Hin) as (L & A & _). simpl in *.
  rewrite Hp, run_alone_app, nth_error_app1; [auto|rewrite run_alone_length; lia].
Qed.

Theorem render_results_match_requests : forall fs sh m0 progs sched tid th i l,
  nth_error (w_threads (conc_run fs sh m0 progs sched)) tid = Some th ->
  In (i, RSnips l) (th_log th) ->
  exists e rs, nth_error (nth tid progs []) i = Some (ORender e rs) /\ map fst l = rs.
Proof.
  intros fs sh m0 progs sched tid th i l E Hin.
  destruct (threads_inv _ _ _ _ _ _ _ E) as (done & Hp & _ & _ & Hl & _).
  destruct (Hl _ Hin) as (L & _ & B). simpl in *. destruct (B l eq_refl) as (e & rs & N1 & M).
  exists e, rs. split; auto. rewrite Hp, nth_error_app1; auto.
Qed.

(* sourceAvailable from memo [m0] to memo [m]: not assigned, or assigned once and then only when it was undecided *)
Definition avail_inv (m0 m : memo) : Prop :=
  (m_writes m = m_writes m0 /\ m_avail m = m_avail m0)
  \/ (m_writes m = S (m_writes m0) /\ m_avail m0 = None /\ exists b, m_avail m = Some b).

(* a rendering in progress: the snippets it has are right, and lines carried by the program counter are the
   file's (they were read in the step before) *)
Definition rs_ok (fs : fsys) (rs : rstate) : Prop :=
  (forall rq s, In (rq, s) (r_done rs) -> snip_ok fs rq s)
  /\ (forall ls, r_pc rs = PPut ls -> match r_reqs rs with rq :: _ => fs (rq_path rq) = Present ls | [] => True end).

Definition th_cache_inv (fs : fsys) (th : thread) : Prop :=
  (forall i l rq s, In (i, RSnips l) (th_log th) -> In (rq, s) l -> snip_ok fs rq s)
  /\ match th_rs th with Some rs => rs_ok fs rs | None => True end.

Lemma mark_avail_inv m0 m b : avail_inv m0 m -> avail_inv m0 (mark m b).
Proof.
  unfold mark. intros H. destruct (m_avail m) eqn:A; auto.
  destruct H as [[W E]|(W & E & b' & S)].
  - right. simpl. repeat split; [now rewrite W|congruence|eauto].
  - congruence.
Qed.

Lemma cache_get_put fs m p ls : memo_ok fs m -> fs p = Present ls -> memo_ok fs (put m p ls).
Proof.
  unfold memo_ok, put, cache_get; simpl. intros H F p' ls'.
  destruct (str_eqb p p') eqn:Q.
  - apply str_eqb_eq in Q. subst p'. simpl. intros E. inversion E. now subst.
  - apply H.
Qed.

Lemma cache_inv_complete fs th s' r : th_cache_inv fs th ->
  (forall l rq s, r = RSnips l -> In (rq, s) l -> snip_ok fs rq s) -> th_cache_inv fs (complete th s' r).
Proof.
  intros [Hl _] Hr. split; [|exact I]. cbn. intros i l rq s Hin.
  apply in_app_iff in Hin as [Hin|[[= _ ->]|[]]]; [exact (Hl _ _ _ _ Hin)|now apply Hr].
Qed.

Lemma held_present fs m rs rq rest ls :
  memo_ok fs m -> rs_ok fs rs -> r_reqs rs = rq :: rest -> held m rs rq ls -> fs (rq_path rq) = Present ls.
Proof. intros Hm [_ Hp] RQ [G|P]; [exact (Hm _ _ G)|]. specialize (Hp ls P). now rewrite RQ in Hp. Qed.

Lemma memo_step_ok fs m rs rq m' :
  memo_ok fs m -> (forall ls, held m rs rq ls -> fs (rq_path rq) = Present ls) -> memo_step m rs rq m' -> memo_ok fs m'.
Proof. intros Hm Hh [|b|ls H]; [exact Hm| |auto using cache_get_put]. unfold memo_ok, mark. now destruct (m_avail m). Qed.

Lemma tstep_cache fs base tid m th m' th' acc :
  memo_ok fs m -> th_cache_inv fs th -> tstep fs tid base m th = (m', th', acc) ->
  memo_ok fs m' /\ th_cache_inv fs th'.
Proof.
  intros Hm I. pose proof I as [Hl Hr].
  assert (Hh : forall rs rq rest ls, th_rs th = Some rs -> r_reqs rs = rq :: rest ->
                 held m rs rq ls -> fs (rq_path rq) = Present ls).
  { intros rs rq rest ls RS RQ. rewrite RS in Hr. now apply held_present with rest. }
  destruct (tstep_spec fs tid base m th)
    as [rs RS RQ|rs rq rest ms m1 p RS RQ M P|rs rq rest ms m1 snip RS RQ M S| |x rest _|q rest _|e rs rest _];
    intros [= <- <- <-]; try rewrite RS in Hr; (split; [eauto using memo_step_ok|]).
  - (* TVdone *) apply cache_inv_complete; [exact I|]. intros l rq s [= <-]. apply Hr.
  - (* TVnext *) split; [exact Hl|]. split; [apply Hr|]. cbn. rewrite RQ. now intros ls ->.
  - (* TVfin *) split; [exact Hl|]. split; [|discriminate]. cbn.
    intros rq' s' Hin. apply in_app_iff in Hin as [Hin|[[= <- <-]|[]]]; [now apply Hr|].
    destruct S as [->|(ls & H & ->)]; [now left|right; eauto].
  - (* TVidle *) exact I.
  - (* TVstmt *) apply cache_inv_complete; [exact I|]. intros l rq s E%(f_equal is_snips). now rewrite stmt_result_not_snips in E.
  - (* TVquery *) apply cache_inv_complete; [exact I|]. intros l rq s E%(f_equal is_snips). now rewrite eval_query_not_snips in E.
  - (* TVrender *) split; [exact Hl|]. split; [intros rq s []|discriminate].
Qed.

Lemma cache_winv fs sh m0 progs sched :
  memo_ok fs m0 -> winv (memo_ok fs) (fun _ th => th_cache_inv fs th) (fun _ => True) (conc_run fs sh m0 progs sched).
Proof.
  intros H0. apply conc_winv; [|exact H0|].
  - intros tid m th m' th' acc Pm Pt S. destruct (tstep_cache _ _ _ _ _ _ _ _ Pm Pt S). auto using Forall_I.
  - intros tid p _. split; [intros ? ? ? ? []|exact I].
Qed.

(* a micro-step leaves the memo, marks it or caches lines *)
Lemma tick_avail fs base m0 w t : avail_inv m0 (w_memo w) -> avail_inv m0 (w_memo (tick fs base w t)).
Proof.
  unfold tick. intros H. destruct (nth_error (w_threads w) t) as [th|]; [|exact H].
  destruct (tstep_spec fs t base (w_memo w) th)
    as [|rs rq rest ms m1 p _ _ [|b|ls _] _|rs rq rest ms m1 snip _ _ [|b|ls _] _| | | |];
    cbn; auto using mark_avail_inv.
Qed.

Theorem avail_once fs base w sched : avail_inv (w_memo w) (w_memo (run_sched fs base w sched)).
Proof.
  apply (fold_left_inv (tick fs base) (fun w' => avail_inv (w_memo w) (w_memo w'))); [|now left].
  intros w' t. apply tick_avail.
Qed.

Theorem cache_atomic : forall fs sh m0 progs sched,
  memo_ok fs m0 ->
  let w := conc_run fs sh m0 progs sched in
  (forall tid th i l rq s, nth_error (w_threads w) tid = Some th ->
      In (i, RSnips l) (th_log th) -> In (rq, s) l -> snip_ok fs rq s)
  /\ memo_ok fs (w_memo w)
  /\ (m_writes (w_memo w) <= S (m_writes m0))
  /\ (m_avail m0 <> None -> m_writes (w_memo w) = m_writes m0 /\ m_avail (w_memo w) = m_avail m0)
  /\ (forall s1 s2 b, sched = s1 ++ s2 ->
        m_avail (w_memo (conc_run fs sh m0 progs s1)) = Some b -> m_avail (w_memo w) = Some b).
Proof.
  intros fs sh m0 progs sched H0 w.
  destruct (cache_winv fs sh m0 progs sched H0) as (Hm & Ht & _).
  pose proof (avail_once fs (s_next sh) (init_world sh m0 progs) sched) as Ha. fold (conc_run fs sh m0 progs sched) w in Ha.
  repeat split.
  - intros tid th i l rq s E. destruct (Ht _ _ E) as [Hl _]. apply Hl.
  - exact Hm.
  - destruct Ha as [[W _]|(W & _)]; cbn in W; lia.
  - destruct Ha as [[W _]|(_ & E & _)]; [exact W|contradiction].
  - destruct Ha as [[_ A]|(_ & E & _)]; [exact A|contradiction].
  - intros s1 s2 b -> Hb. unfold w, conc_run in *. rewrite run_sched_app. set (w1 := run_sched _ _ _ s1) in *.
    destruct (avail_once fs (s_next sh) w1 s2) as [[_ A]|(_ & E & _)]; congruence.
Qed.

Definition acc_locked (a : string * string * string * bool * string) : bool := let '(_, _, _, h, _) := a in h.
Definition acc_var (a : string * string * string * bool * string) : string := let '(_, v, _, _, _) := a in v.
Definition acc_mu (a : string * string * string * bool * string) : string := let '(_, _, _, _, m) := a in m.
(* one mutex per variable *)
Definition guards_consistent (l : list (string * string * string * bool * string)) : bool :=
  forallb (fun a => forallb (fun b => negb (str_eqb (acc_var a) (acc_var b)) || str_eqb (acc_mu a) (acc_mu b)) l) l.
(* a write holds Lock(), a read Lock() or RLock(), as recorded in lock_sites *)
Definition acc_lock_mode_ok (a : string * string * string * bool * string) : bool :=
  let '(f, v, m, _, _) := a in
  match gen_lock f v m with
  | [k] => if str_eqb m "W" then lk_excl k else true
  | _ => false
  end.
Definition released (l : string * string * string * string) : bool :=
  let '(_, _, _, how) := l in str_eqb how "defer" || str_eqb how "explicit".

(* On every run, what srcgen extracts from /repo equals the tables audited by hand in Spec/EffectsAudit.v,
   and the extracted lock discipline is consistent. *)
Theorem effects_audited :
  effects_matched = true
  /\ write_sites = audited_write_sites
  /\ mutator_calls = audited_mutator_calls
  /\ fresh_sources = audited_fresh_sources
  /\ pkgvar_accesses = audited_pkgvar_accesses
  /\ lock_sites = audited_lock_sites
  /\ pkgvar_init_only = audited_pkgvar_init_only
  /\ sync_typed = audited_sync_typed
  /\ forallb acc_locked pkgvar_accesses = true
  /\ guards_consistent pkgvar_accesses = true
  /\ forallb acc_lock_mode_ok pkgvar_accesses = true
  /\ forallb released lock_sites = true.
Proof. destruct writes_audited as (A & B & C & D). repeat split; trivial. Qed.

Lemma corr_implies_ok : forall c, C16.corr c = true -> C16.ok c = true.
Proof. intros c H. exact H. Qed.

Lemma corr_iff_ok : forall c, C16.corr c = C16.ok c.
Proof. reflexivity. Qed.
