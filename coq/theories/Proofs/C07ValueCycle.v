(* K12 in the model: a cycle of value-kinded (untracked) errors makes buildNode recurse for ever. *)
From Errdef Require Import Base.Str Model.Tree Spec.Unfold Proofs.C06Proofs.

(* a = VS{..} -> b = VS{..} -> a, both struct values (no address to track), below an errdef error *)
Definition vcycle : graph :=
  [ {| g_key := None; g_unwrap := USingle (Some 1%nat); g_errdef := false |};
    {| g_key := None; g_unwrap := USingle (Some 0%nat); g_errdef := false |};
    {| g_key := Some 3%N; g_unwrap := UMulti [Some 0%nat]; g_errdef := true |} ].

Lemma vcycle_build_node_diverges : forall fuel vm,
  build_node fuel vcycle 0 vm = None /\ build_node fuel vcycle 1 vm = None.
Proof.
  induction fuel as [|f IH]; intros vm; [split; reflexivity|].
  destruct (IH vm) as [IH0 IH1]. split.
  - cbn [build_node nth_error vcycle g_key causes_of g_unwrap build_list]. now rewrite IH1.
  - cbn [build_node nth_error vcycle g_key causes_of g_unwrap build_list]. now rewrite IH0.
Qed.

Theorem vcycle_refuted :
  closed vcycle /\ keys_not_marker vcycle /\ keys_injective vcycle /\ ~ untracked_ranked vcycle /\
  forall fuel, build_cause_tree fuel vcycle 2 = None.
Proof.
  split; [apply closedb_sound; vm_compute; reflexivity|].
  split; [apply nomarkerb_sound; vm_compute; reflexivity|].
  split; [apply injb_sound; vm_compute; reflexivity|]. split.
  - intros H. pose proof (H 0 _ 1 _ eq_refl eq_refl (or_introl eq_refl) eq_refl eq_refl). lia.
  - intros fuel. unfold build_cause_tree, build_nodes. cbn [nth_error vcycle causes_of g_unwrap build_list].
    now rewrite (proj1 (vcycle_build_node_diverges fuel [])).
Qed.
