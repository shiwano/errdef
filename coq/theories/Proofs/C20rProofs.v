(* C20, restored errors: the field accessors of an error returned by unmarshal (rf_get, rf_find_keys, rf_all,
   rf_len of Model/Unmarshal.v) agree with each other (restored_coherent, under rwf: distinct names and key ids), and every decoded field ends up in
   exactly one of typed / unknown (restored_partition, which also establishes rwf). *)
From Coq Require Import Sorting.Permutation.
From Errdef Require Import Base.Str Base.StrOrd Base.ListFacts Base.SortFacts Model.Core Model.Convert Model.Unmarshal
  Proofs.UnmarshalFacts Proofs.SortFields Proofs.C13Proofs Proofs.C12Proofs.

Definition entry := (anykey * rvalue)%type.
Definition e_name (x : entry) : string := ak_name (fst x).

(* All() sorts the entries by name: rf_all e = sort_entries (entries e) *)
Definition sort_entries (l : list entry) : list entry := fold_right ins_by_name [] l.

Theorem sort_perm_invariant l l' :
  Permutation l l' -> NoDup (map e_name l) -> sort_entries l = sort_entries l'.
Proof.
  exact (isort_perm_invariant e_name String.leb ins_by_name (fun _ => eq_refl) (fun _ _ _ => eq_refl)
           leb_false_flip leb_trans String.leb_antisym l l').
Qed.

Lemma sort_entries_perm l : Permutation (sort_entries l) l.
Proof. exact (isort_perm e_name String.leb ins_by_name (fun _ => eq_refl) (fun _ _ _ => eq_refl) l). Qed.

Definition entries (e : rerr) : list entry :=
  (map (fun kv => (AKTyped (fst kv), RVBound (snd kv))) (r_typed e) ++
   map (fun nv => (AKName (fst nv), RVRaw (snd nv))) (r_unknown e))%list.

Lemma in_rf_all e x : In x (rf_all e) <-> In x (entries e).
Proof. exact (isort_in e_name String.leb ins_by_name (fun _ => eq_refl) (fun _ _ _ => eq_refl) (entries e) x). Qed.

Lemma in_entries e a v : In (a, v) (entries e) <->
  (exists k b, a = AKTyped k /\ v = RVBound b /\ In (k, b) (r_typed e)) \/
  (exists n w, a = AKName n /\ v = RVRaw w /\ In (n, w) (r_unknown e)).
Proof.
  unfold entries. rewrite in_app_iff, !in_map_iff. split.
  - intros [[[k b] [E H]]|[[n w] [E H]]]; inversion E; subst; [left; now exists k, b|right; now exists n, w].
  - intros [[k [b [-> [-> H]]]]|[n [w [-> [-> H]]]]]; [left; now exists (k, b)|right; now exists (n, w)].
Qed.

Lemma entries_names e :
  map e_name (entries e) = (map (fun kv => k_name (uk_key (fst kv))) (r_typed e) ++ map fst (r_unknown e))%list.
Proof. unfold entries. now rewrite map_app, !map_map. Qed.

Definition rwf (e : rerr) : Prop :=
  NoDup (map e_name (entries e)) /\ NoDup (map (fun kv => k_id (uk_key (fst kv))) (r_typed e)).

Theorem restored_coherent e : rwf e ->
  rf_len e = List.length (rf_all e) /\
  (rf_is_zero e = true <-> rf_len e = 0) /\
  (forall a v, In (a, v) (rf_all e) -> rf_get e a = Some v /\ In a (rf_find_keys e (ak_name a))) /\
  (forall n a, In a (rf_find_keys e n) -> ak_name a = n /\ exists v, In (a, v) (rf_all e)) /\
  (forall n, ~ In n (map e_name (entries e)) -> rf_get e (AKName n) = None /\ rf_find_keys e n = []).
Proof.
  intros [Hn Hk]. rewrite entries_names in *. apply NoDup_app_r in Hn.
  split; [|split; [apply Nat.eqb_eq|split; [|split]]].
  - change (rf_all e) with (sort_entries (entries e)). rewrite (Permutation_length (sort_entries_perm _)).
    unfold rf_len, entries. now rewrite app_length, !map_length.
  - (* an entry is found under its key: ids, resp. unknown names, are distinct *)
    intros a v H. unfold rf_find_keys. rewrite in_app_iff.
    apply in_rf_all, in_entries in H as [[k [b [-> [-> H]]]]|[n [w [-> [-> H]]]]]; cbn [rf_get ak_name].
    + rewrite (find_NoDup (fun kv => k_id (uk_key (fst kv))) _ _ (k, b) Hk H (N.eqb_refl _))
        by (intros y _ Q; now apply N.eqb_eq in Q).
      split; [reflexivity|]. left. apply in_map_iff. exists (k, b). split; [reflexivity|].
      apply filter_In. split; [exact H|apply str_eqb_refl].
    + rewrite existsb_find, (find_NoDup fst _ _ (n, w) Hn H (str_eqb_refl n))
        by (intros y _ Q; now apply str_eqb_eq in Q).
      split; [reflexivity|]. right. now left.
  - intros n a H. unfold rf_find_keys in H. rewrite existsb_find in H. apply in_app_iff in H as [H|H].
    + apply in_map_iff in H as [[k b] [<- H]]. apply filter_In in H as [H Q].
      split; [now apply str_eqb_eq in Q|]. exists (RVBound b). apply in_rf_all, in_entries. left. now exists k, b.
    + destruct (find _ (r_unknown e)) as [[n' w]|] eqn:F; [|contradiction]. destruct H as [<-|[]].
      apply find_some in F as [H Q]. apply str_eqb_eq in Q. cbn in Q. subst n'.
      split; [reflexivity|]. exists (RVRaw w). apply in_rf_all, in_entries. right. now exists n, w.
  - intros n H. rewrite in_app_iff in H.
    assert (U : find (fun nv => str_eqb (fst nv) n) (r_unknown e) = None).
    { destruct (find _ _) as [nw|] eqn:F; [|reflexivity]. apply find_some in F as [Hin Q]. apply str_eqb_eq in Q.
      exfalso. apply H. right. rewrite <- Q. now apply in_map. }
    unfold rf_get, rf_find_keys. rewrite existsb_find, U. split; [reflexivity|]. rewrite app_nil_r.
    destruct (filter _ (r_typed e)) as [|kb r] eqn:F; [reflexivity|].
    assert (Hin : In kb (filter (fun kv => str_eqb (k_name (uk_key (fst kv))) n) (r_typed e))) by (rewrite F; now left).
    apply filter_In in Hin as [Hin Q]. apply str_eqb_eq in Q. exfalso. apply H. left. rewrite <- Q.
    now apply (in_map (fun kv : ukey * bval => k_name (uk_key (fst kv)))).
Qed.

Definition keys_wf (c : ucfg) (d : udef) : Prop :=
  forall k1 k2, In k1 (ud_keys d ++ u_custom c)%list -> In k2 (ud_keys d ++ u_custom c)%list ->
    k_id (uk_key k1) = k_id (uk_key k2) -> k_name (uk_key k1) = k_name (uk_key k2).

Theorem restored_partition c m k t fs st cs u e def :
  resolve_kind_u c k = UOk def -> keys_wf c def -> NoDup (map fst fs) ->
  unmarshal c (DD m k t fs st cs u) = UOk e ->
  Permutation (map e_name (entries e)) (map fst fs) /\ rwf e.
Proof.
  intros R Hk Hn E. apply unmarshal_ok_inv in E as (def' & cs' & ty & un & R' & _ & Fc & ->).
  rewrite R in R'. injection R' as <-. set (rs := bound_fields c def k fs) in *.
  assert (Hty : forall n key b, In (n, FTyped key b) rs -> k_name (uk_key key) = n /\ In key (ud_keys def ++ u_custom c)%list).
  { intros n key b Hin. apply bound_fields_in in Hin as [v [_ B]]. symmetry in B. apply bind_field_typed in B. tauto. }
  unfold rwf. rewrite entries_names. cbn [r_typed r_unknown].
  assert (P : Permutation (map (fun kv => k_name (uk_key (fst kv))) ty ++ map fst un) (map fst fs)).
  { destruct (collect_as_flat_map rs) as [Et [Eu _]]. rewrite Fc in Et, Eu. cbn in Et, Eu. rewrite Et, Eu.
    eapply Permutation_trans; [apply (partition_perm typed_of unknown_of_f _ fst fst)|].
    - intros [n [key b|w|f|w]] Hin; cbn; [left|right|exfalso..]; auto.
      + split; [|reflexivity]. f_equal. apply (Hty n key b Hin).
      + exact (proj2 (collect_fails f Fc) (ex_intro _ n Hin)).
      + apply bound_fields_in in Hin as [v [_ B]]. symmetry in B. apply bind_field_inv in B. inversion B.
    - unfold rs, bound_fields. rewrite map_map. apply sort_fields_names_perm. }
  split; [exact P|]. split; [exact (Permutation_NoDup (Permutation_sym P) Hn)|].
  (* equal ids would give equal names, but the names are pairwise distinct *)
  apply (NoDup_map_reflect (fun kv => k_name (uk_key (fst kv)))).
  - exact (NoDup_app_l _ _ (Permutation_NoDup (Permutation_sym P) Hn)).
  - intros [k1 b1] [k2 b2] H1 H2. apply (collect_typed _ _ Fc) in H1 as [n1 H1], H2 as [n2 H2].
    apply Hk; [apply (Hty n1 k1 b1 H1)|apply (Hty n2 k2 b2 H2)].
Qed.

Theorem restored_all_deterministic c m k t fs fs' st cs u e e' :
  NoDup (map fst fs) -> Permutation fs fs' ->
  unmarshal c (DD m k t fs st cs u) = UOk e -> unmarshal c (DD m k t fs' st cs u) = UOk e' -> e = e'.
Proof.
  intros Hn P E E'. unfold unmarshal in *. rewrite (deterministic_top c m k t fs fs' st cs u P Hn), E' in E.
  now injection E.
Qed.
