(* The unmarshaler's entry points as translated from the source (Gen/GoLiteSrc.v, run by the GoLite interpreter with the
   primitives of Model/UnmarshalGL.v) compute exactly what the hand-written model Model/Unmarshal.v computes - for every
   configuration, every decoded tree of any depth whose field names are distinct at each node (nil nodes included) and
   every sufficient fuel.  Every theorem about [unmarshal] / [unmarshal_cause] / [unmarshal_top] (C09, C10, C12, C13,
   C20) is thereby a theorem about the code srcgen read from /repo in this run.

   The generated bodies are run by [cbn] over environments of known shape, against an abstract [call] that is later
   instantiated with [run n].  Every Go loop is one use of [range_loop_rule]: its body is run once, for one element.
   The pieces of program written out here ([try_iter], [custom_body], [after_keys], [cause_iter], [fields_split],
   [body1_skel], [body2_skel]) are tied to the generated bodies by [fields_body_ok], [body1_ok], [body2_ok], each a
   [reflexivity]: these are what fails first when the Go source changes.

   srcgen numbers the functions and, within a function, the variables in order of declaration:
     um_fn0 Unmarshal, um_fn1 unmarshal, um_fn2 unmarshalCause, um_fn3 resolveKind, um_fn4 resolveDefinitionFromMessage.
     unmarshal (body1, names1): v0 d (the receiver), v1 decoded, v2 def, v3 err, v4 fields, v5 unknownFields,
       v6 fieldName, v7 fieldValue, v8 keys, v9 matched, v10 v (of the type switch), v11 key, v12 v, v13 ok, v14 err,
       v15 customKey, v16 v, v17 ok, v18 err, v19 causes, v20 causeData, v21 cause, v22 err.
     unmarshalCause (body2, names2): v0 d, v1 causeData, v2 cause, v3 err, v4 msg, v5 typeName, v6 nestedCauses,
       v7 nestedCauseData, v8 nestedCause, v9 err, v10 def, v11 ok, v12 sentinelErr, v13 ok, v14 unknownErr. *)
From Errdef Require Import Base.Str Base.ListFacts Base.SortFacts Base.Outcome Model.Core Model.Convert Model.Unmarshal Model.GoLite Model.GoLiteFacts Model.UnmarshalGL.
From Errdef Require Import Proofs.UnmarshalFacts Proofs.SortFields.
From Coq Require Import Permutation.
Import GoLiteSrc.

#[local] Arguments sort_strs : simpl never.
#[local] Arguments resolve_kind_u : simpl never.
#[local] Arguments resolve_kind_def : simpl never.
#[local] Arguments try_convert : simpl never.
#[local] Arguments named : simpl never.
#[local] Arguments lookup_sentinel : simpl never.
#[local] Arguments fields_entries : simpl never.
#[local] Arguments map_index : simpl never.
#[local] Arguments entry_names : simpl never.
#[local] Arguments cause_vals : simpl never.
#[local] Arguments key_vals : simpl never.
#[local] Arguments typed_of : simpl never.
#[local] Arguments unknown_of : simpl never.
#[local] Arguments causes_of : simpl never.
#[local] Arguments append_val : simpl never.
#[local] Arguments len_val : simpl never.

Definition body1 : stmt := Eval cbv in fn_body um_fn1.
Definition names1 : list string := Eval cbv in fn_names um_fn1.
Definition body2 : stmt := Eval cbv in fn_body um_fn2.
Definition names2 : list string := Eval cbv in fn_names um_fn2.
Definition fields_body : stmt := Eval cbv in range_body (seq_nth body1 5).

(* `if b, ok, err := tryConvertFieldValue(x, v); err != nil { return nil, err } else if ok { fields[x] = b; found = true; break }`:
   the body of the loop over the definition's keys and, under a test of the key's name, of the loop over the custom keys *)
Definition try_iter (x b ok e : string) : stmt :=
  SIf (SAssign [b; ok; e] (ECall "tryConvertFieldValue" [EVar x; EVar "v7"])) (ENot (ECall "==" [EVar e; ENilLit]))
    (SReturn [ENilLit; EVar e])
    (SIf SSkip (EVar ok) (SSeq (SSetIndex "v4" (EVar x) (EVar b)) (SSeq (SAssign ["v9"] (EBoolLit true)) SBreak)) SSkip).
Definition custom_body : stmt :=
  SIf SSkip (ECall "==" [ECall ".String" [EVar "v15"]; EVar "v6"]) (try_iter "v15" "v16" "v17" "v18") SSkip.
Definition strict_tail : stmt :=
  Eval cbv in let x := if_then (seq_nth fields_body 5) in SSeq (seq_nth x 2) (seq_nth x 3).
Definition after_custom : stmt := SSeq (SIf SSkip (EVar "v9") SContinue SSkip) strict_tail.
Definition after_keys : stmt :=
  SIf SSkip (ENot (EVar "v9")) (SSeq (SRange "_" "v15" (ECall ".customFieldKeys" [EVar "v0"]) custom_body) after_custom) SSkip.
Definition fields_rest : stmt := SSeq (SRange "_" "v11" (EVar "v8") (try_iter "v11" "v12" "v13" "v14")) after_keys.
Definition fields_pre : stmt := Eval cbv in
  SSeq (seq_nth fields_body 0) (SSeq (seq_nth fields_body 1) (SSeq (seq_nth fields_body 2) (seq_nth fields_body 3))).
Definition type_switch : stmt := Eval cbv in seq_nth fields_body 3.
Definition fields_split : stmt := Eval cbv [seq_nth fields_body] in
  SSeq (seq_nth fields_body 0) (SSeq (seq_nth fields_body 1) (SSeq (seq_nth fields_body 2) (SSeq type_switch fields_rest))).
Lemma fields_body_ok : fields_body = fields_split.
Proof. reflexivity. Qed.
Arguments try_iter : simpl never.
Arguments custom_body : simpl never.
Arguments after_custom : simpl never.
Arguments after_keys : simpl never.
Arguments fields_rest : simpl never.
Arguments type_switch : simpl never.
Arguments fields_body : simpl never.

Lemma names1_nodup : NoDup names1.
Proof. apply (NoDup_nodup string_dec names1). Qed.
Lemma names2_nodup : NoDup names2.
Proof. apply (NoDup_nodup string_dec names2). Qed.

(* [H : env_is names known en], possibly with further hypotheses [slot x en = a]: make [en] a list of that shape
   with the known entries in place *)
Ltac open_env H :=
  hnf in H;
  lazymatch type of H with
  | map fst ?en = _ /\ _ =>
      let Hs := fresh in let K := fresh in destruct H as [Hs K];
      repeat match goal with H' : slot ?x en = ?a |- _ => apply (Forall_cons (x, a) H') in K; clear H' end;
      revert en Hs K; refine (env_open _ _ _ _ _); [first [exact names1_nodup | exact names2_nodup]|];
      cbn [forall_env names1 names2 lookup String.eqb Ascii.eqb Bool.eqb]; intros *
  end.
Ltac env_ok := split; [reflexivity|repeat constructor].
(* the loop in the goal, by [range_loop_rule] with the step lemma [step]; the invariant at entry is left to prove *)
Ltac loop_rule step l s L :=
  match goal with |- context [range_loop _ _ ?k ?v ?i _ ?en] =>
    unshelve epose proof (range_loop_rule _ k v _ _ _ _ step l s i en _) as L end.

Definition encT (T : list (ukey * bval)) : list (value dom * value dom) :=
  map (fun kb => (VD (DKey (fst kb)), VD (DBound (snd kb)))) T.
Definition tname (kb : ukey * bval) : string := k_name (uk_key (fst kb)).

Definition invU (Ugl : list (value dom * value dom)) (U : list (string * dval)) : Prop :=
  Forall2 (fun g m => exists x, g = (VStr (fst m), x) /\ dval_of x = Some (snd m)) Ugl U.

Lemma map_set_T k b T :
  ~ In (k_name (uk_key k)) (map tname T) ->
  map_set dom um_ext (VD (DKey k)) (VD (DBound b)) (encT T) = Some (encT (T ++ [(k, b)])).
Proof.
  intros H. unfold encT at 2. rewrite map_app. apply map_set_fresh, Forall_map, Forall_forall. intros kb Hin.
  unfold val_eqb. cbn. unfold ukey_same. destruct (str_eqb _ _) eqn:E; [|now rewrite andb_false_r].
  destruct H. apply str_eqb_eq in E. rewrite E. exact (in_map tname _ _ Hin).
Qed.

Lemma map_set_U n x Ugl U :
  invU Ugl U -> ~ In n (map fst U) ->
  map_set dom um_ext (VStr n) x Ugl = Some (Ugl ++ [(VStr n, x)]).
Proof.
  intros HU H. apply map_set_fresh. induction HU as [|g m gl ml (y & -> & _) _ IH]; constructor.
  - unfold val_eqb. cbn. destruct (str_eqb n (fst m)) eqn:E; [|reflexivity]. destruct H. left. symmetry. now apply str_eqb_eq.
  - apply IH. intros Hin. apply H. now right.
Qed.

Lemma typed_of_encT T : typed_of (VMap (encT T)) = Some T.
Proof. unfold typed_of, encT. induction T as [|[k b] r IH]; simpl; [reflexivity|]. rewrite IH. reflexivity. Qed.

Lemma unknown_of_invU Ugl U : invU Ugl U -> unknown_of (VMap Ugl) = Some U.
Proof.
  intros H. unfold unknown_of. induction H as [|g [n d] gl ml (y & -> & Hy) _ IH]; simpl; [reflexivity|].
  simpl in Hy. rewrite Hy, IH. reflexivity.
Qed.

Lemma invU_app Ugl U n x d : invU Ugl U -> dval_of x = Some d -> invU (Ugl ++ [(VStr n, x)]) (U ++ [(n, d)]).
Proof.
  intros H Hx. apply Forall2_app; [exact H|]. constructor; [|constructor]. exists x. split; [reflexivity|exact Hx].
Qed.

Definition names_of (T : list (ukey * bval)) (U : list (string * dval)) (todo : list string) : list string :=
  map tname T ++ map fst U ++ todo.

Lemma names_fresh T U n r : NoDup (names_of T U (n :: r)) -> ~ In n (map tname T) /\ ~ In n (map fst U).
Proof.
  unfold names_of. rewrite app_assoc. intros H%NoDup_remove_2. rewrite !in_app_iff in H. tauto.
Qed.

Lemma names_typed T U n r kb : tname kb = n -> NoDup (names_of T U (n :: r)) -> NoDup (names_of (T ++ [kb]) U r).
Proof.
  intros <-. unfold names_of. rewrite map_app, <- app_assoc. apply Permutation_NoDup, Permutation_app_head.
  exact (Permutation_sym (Permutation_middle _ _ _)).
Qed.

Lemma names_unknown T U n x r : NoDup (names_of T U (n :: r)) -> NoDup (names_of T (U ++ [(n, x)]) r).
Proof. unfold names_of. now rewrite map_app, <- app_assoc. Qed.

Lemma first_named n ks v kb : first_convert (named n ks) v = Ok (Some kb) -> tname kb = n.
Proof. destruct kb as [k b]. intros [Hin%named_In _]%first_convert_ok. apply Hin. Qed.

Lemma index_fields n v d :
  find (fun nv => str_eqb n (fst nv)) (dd_fields d) = Some (n, v) ->
  map_index (VStr n) (fields_entries d) = VD (DVal v).
Proof.
  unfold map_index, fields_entries. induction (dd_fields d) as [|[m w] r IH]; simpl; [discriminate|].
  destruct (str_eqb n m) eqn:E; [intros H; inversion H; subst; reflexivity|exact IH].
Qed.

Lemma entry_names_fields d : entry_names (fields_entries d) = Some (map fst (dd_fields d)).
Proof.
  unfold entry_names, fields_entries. induction (dd_fields d) as [|[n v] r IH]; simpl; [reflexivity|].
  rewrite IH. reflexivity.
Qed.

Lemma sort_strs_fields l : sort_strs (map fst l) = map fst (sort_fields l).
Proof.
  symmetry. exact (isort_map_key fst String.leb ins_field (fun _ => eq_refl) (fun _ _ _ => eq_refl)
                     ins_str (fun _ => eq_refl) (fun _ _ _ => eq_refl) l).
Qed.

Section WithCall.
Variable call : string -> list (value dom) -> ires (value dom).
Notation exec1 := (exec dom um_ext um_funs call).

Section Node.
Variables (c : ucfg) (d : dd) (def : udef).

Definition field_state : Type := list (ukey * bval) * list (string * dval).
Local Notation indexed := (fun nv : string * dval => map_index (VStr (fst nv)) (fields_entries d) = VD (DVal (snd nv))).
Local Notation no_break := (fun (_ : Empty_set) (_ : env dom) => False).

Definition fields_inv (todo : list (string * dval)) (s : field_state) (en : env dom) : Prop :=
  (exists Ugl, env_is names1 [("v0", VD (DU c)); ("v1", VD (DNode d)); ("v2", VD (DDef def));
                              ("v4", VMap (encT (fst s))); ("v5", VMap Ugl)] en /\ invU Ugl (snd s)) /\
  Forall indexed todo /\ NoDup (names_of (fst s) (snd s) (map fst todo)).

Definition field_out (s : field_state) (nv : string * dval) : lout dom field_state Empty_set :=
  match bind_field c def (dd_kind d) (fst nv) (snd nv) with
  | FTyped k b => LGo (fst s ++ [(k, b)], snd s)
  | FUnknown x => LGo (fst s, snd s ++ [(fst nv, x)])
  | FFail f => LRet [VNil; VD (DErr f)]
  | FPanic w => LPanic w
  end.

Section Field.
Variables (n : string) (v : dval) (T : list (ukey * bval)) (Ugl : list (value dom * value dom)).

(* inside one pass, at field n with value v, while the keys are tried: the key that accepted v, if any *)
Definition in_field (s : option (ukey * bval)) (en : env dom) : Prop :=
  env_is names1 [("v0", VD (DU c)); ("v1", VD (DNode d)); ("v2", VD (DDef def));
                 ("v4", VMap (encT (match s with Some kb => T ++ [kb] | None => T end))); ("v5", VMap Ugl);
                 ("v6", VStr n); ("v7", VD (DVal v)); ("v9", VBool (match s with Some _ => true | None => false end))] en.

Definition try_key (_ : unit) (k : ukey) : lout dom unit (ukey * bval) :=
  match try_convert (uk_ty k) v with
  | Ok (Some b) => LBrk (k, b)
  | Ok None => LGo tt
  | Fail _ => LRet [VNil; VD (DErr internal_failure)]
  | Panic w => LPanic w
  end.

Lemma try_keys ks : lfold try_key tt ks =
  match first_convert ks v with
  | Ok (Some kb) => LBrk kb
  | Ok None => LGo tt
  | Fail _ => LRet [VNil; VD (DErr internal_failure)]
  | Panic w => LPanic w
  end.
Proof. induction ks as [|k r IH]; cbn; [reflexivity|]. unfold try_key at 1. now destruct (try_convert (uk_ty k) v) as [[b|]|?|?]. Qed.

Section Keys.
Hypothesis Hfresh : ~ In n (map tname T).

(* one statement for the two loops over keys: [x b ok e] are the variables of either *)
Lemma try_step x b ok e k (R : list ukey -> unit -> env dom -> Prop) todo en :
  In [x; b; ok; e] [["v11"; "v12"; "v13"; "v14"]; ["v15"; "v16"; "v17"; "v18"]] ->
  k_name (uk_key k) = n -> (forall en', in_field None en' -> R todo tt en') ->
  in_field None en -> slot x en = VD (DKey k) ->
  body_post R (fun kb => in_field (Some kb)) todo (try_key tt k) (exec1 (try_iter x b ok e) en).
Proof.
  intros Hx Hk HR H Hxk. unfold try_key, try_iter.
  destruct Hx as [E|[E|[]]]; injection E as <- <- <- <-; open_env H; cbn;
    (destruct (try_convert (uk_ty k) v) as [[bv|]|cls|w]; cbn;
     [ rewrite map_set_T by (rewrite Hk; exact Hfresh); eexists; split; [reflexivity|env_ok]
     | apply body_go; [now left|apply HR; env_ok]
     | eexists; reflexivity
     | reflexivity ]).
Qed.

Definition trying_named (todo : list ukey) (_ : unit) (en : env dom) : Prop :=
  Forall (fun k => k_name (uk_key k) = n) todo /\ in_field None en.

Lemma keys_step k todo s i en : trying_named (k :: todo) s en ->
  body_post trying_named (fun kb => in_field (Some kb)) todo (try_key s k)
    (exec1 (try_iter "v11" "v12" "v13" "v14") (bind1 dom "v11" (VD (DKey k)) (bind1 dom "_" (VInt i) en))).
Proof.
  intros [[Hk Hks]%Forall_cons_iff H]. destruct s. open_env H. cbn [bind1 update String.eqb Ascii.eqb Bool.eqb].
  apply try_step; [now left|exact Hk|intros en' H; exact (conj Hks H)|env_ok|reflexivity].
Qed.

Definition custom_key (s : unit) (k : ukey) : lout dom unit (ukey * bval) :=
  if str_eqb (k_name (uk_key k)) n then try_key s k else LGo s.

Lemma custom_keys ks : lfold custom_key tt ks = lfold try_key tt (named n ks).
Proof.
  induction ks as [|k r IH]; [reflexivity|]. unfold named, custom_key. cbn. destruct (str_eqb _ n); [|exact IH].
  cbn. destruct (try_key tt k) as [[]| | | |]; auto.
Qed.

Lemma custom_step k todo s i en : in_field None en ->
  body_post (fun (_ : list ukey) (_ : unit) => in_field None) (fun kb => in_field (Some kb)) todo (custom_key s k)
    (exec1 custom_body (bind1 dom "v15" (VD (DKey k)) (bind1 dom "_" (VInt i) en))).
Proof.
  intros H. open_env H. unfold custom_body, custom_key. cbn. destruct s, (str_eqb (k_name (uk_key k)) n) eqn:E; cbn.
  - apply try_step; [now right; left|now apply str_eqb_eq|auto|env_ok|reflexivity].
  - apply body_go; [now left|env_ok].
Qed.

End Keys.

Lemma switch_step U en : in_field None en -> invU Ugl U -> ~ In n (map fst U) ->
  exec1 type_switch en =
  if is_placeholder v
  then IOk (update dom "v5" (VMap (Ugl ++ [(VStr n, VStr redacted_str)])) (update dom "v10" (VD (DVal v)) en), CCont)
  else IOk (update dom "v10" (VD (DVal v)) en, CNext).
Proof.
  intros H HU HnU. pose proof (map_set_U n (VStr redacted_str) Ugl U HU HnU) as Hset. open_env H. unfold type_switch.
  destruct v as [|t [b|s|z|z|z]|id tbl|bs|id kd conv]; cbn; try reflexivity.
  - destruct (N.eqb (s_id t) 1); cbn; [|reflexivity]. destruct (str_eqb s redacted_str); cbn; [|reflexivity].
    rewrite Hset. reflexivity.
  - destruct (str_eqb bs redacted_json); cbn; [|reflexivity]. rewrite Hset. reflexivity.
Qed.

Lemma field_rest U todo en :
  is_placeholder v = false -> in_field None en -> slot "v8" en = VList (key_vals (named n (ud_keys def))) ->
  invU Ugl U -> Forall indexed todo -> NoDup (names_of T U (n :: map fst todo)) ->
  body_post fields_inv no_break todo (field_out (T, U) (n, v)) (exec1 fields_rest en).
Proof.
  intros Hph H H8 HU Hidx Hnd. pose proof (proj1 (names_fresh _ _ _ _ Hnd)) as Hfresh. unfold field_out, bind_field. cbn [fst snd]. rewrite Hph.
  assert (Hks : Forall (fun k => k_name (uk_key k) = n) (named n (ud_keys def))).
  { apply Forall_forall. intros k Hk%named_In. apply Hk. }
  open_env H. unfold fields_rest. cbn.
  loop_rule (keys_step Hfresh) (named n (ud_keys def)) tt L; [split; [exact Hks|env_ok]|].
  rewrite try_keys in L. unfold key_vals in L |- *.
  destruct (first_convert (named n (ud_keys def)) v) as [[[k b]|]|cls|w] eqn:Efc; hnf in L.
  - destruct L as (en' & -> & H). cbn [ibind snd fst]. open_env H. unfold after_keys. cbn. apply body_go; [now left|].
    split; [exists Ugl; split; [env_ok|exact HU]|split; [exact Hidx|]].
    apply names_typed with (n := n); [exact (first_named _ _ _ _ Efc)|exact Hnd].
  - destruct L as (en' & -> & _ & H). cbn [ibind snd fst]. open_env H. unfold after_keys. cbn.
    loop_rule (custom_step Hfresh) (u_custom c) tt L; [env_ok|].
    rewrite custom_keys, try_keys in L. unfold key_vals in L |- *.
    destruct (first_convert (named n (u_custom c)) v) as [[[k b]|]|cls|w] eqn:Efc2; hnf in L.
    + destruct L as (en' & -> & H). cbn [ibind snd fst]. open_env H. unfold after_custom. cbn. apply body_go; [now right|].
      split; [exists Ugl; split; [env_ok|exact HU]|split; [exact Hidx|]].
      apply names_typed with (n := n); [exact (first_named _ _ _ _ Efc2)|exact Hnd].
    + destruct L as (en' & -> & H). cbn [ibind snd fst]. open_env H. unfold after_custom, strict_tail. cbn.
      destruct (u_strict c); cbn; [eexists; reflexivity|].
      rewrite (map_set_U n _ Ugl U HU (proj2 (names_fresh _ _ _ _ Hnd))). apply body_go; [now left|].
      split; [eexists; split; [env_ok|now apply invU_app]|split; [exact Hidx|]]. now apply names_unknown.
    + destruct L as (en' & ->). eexists. reflexivity.
    + rewrite L. reflexivity.
  - destruct L as (en' & ->). eexists. reflexivity.
  - rewrite L. reflexivity.
Qed.
End Field.

Lemma field_step nv todo s i en : fields_inv (nv :: todo) s en ->
  body_post fields_inv no_break todo (field_out s nv)
    (exec1 fields_body (bind1 dom "v6" (VStr (fst nv)) (bind1 dom "_" (VInt i) en))).
Proof.
  destruct nv as [n v], s as [T U]. intros ((Ugl & H & HU) & [Hi Hidx]%Forall_cons_iff & Hnd).
  cbn [fst snd map] in *. pose proof (proj2 (names_fresh _ _ _ _ Hnd)) as HnU.
  open_env H. rewrite fields_body_ok. unfold fields_split. cbn. rewrite Hi. cbn.
  rewrite (switch_step n v T Ugl U) by first [env_ok|assumption].
  destruct (is_placeholder v) eqn:Hph; cbn.
  - unfold field_out, bind_field. cbn [fst snd]. rewrite Hph. apply body_go; [now right|].
    split; [eexists; split; [env_ok|now apply invU_app]|split; [exact Hidx|]]. now apply names_unknown.
  - apply (field_rest n v T Ugl U todo); [exact Hph|env_ok|reflexivity|exact HU|exact Hidx|exact Hnd].
Qed.

Lemma fields_fold l : forall T U,
  let x := collect_fields (map (fun nv => (fst nv, bind_field c def (dd_kind d) (fst nv) (snd nv))) l) in
  lfold field_out (T, U) l =
  match snd (fst x) with
  | [] => LGo (T ++ fst (fst (fst x)), U ++ snd (fst (fst x)))
  | f :: _ => LRet [VNil; VD (DErr f)]
  end.
Proof.
  induction l as [|[n v] r IH]; intros T U; cbn [map collect_fields lfold fst snd].
  - now rewrite !app_nil_r.
  - unfold field_out at 1. cbn [fst snd].
    destruct (bind_field c def (dd_kind d) n v) as [k b|x|f|w] eqn:Eb.
    + specialize (IH (T ++ [(k, b)]) U). destruct (collect_fields _) as [[[ty un] fl] pn]. cbn in *.
      rewrite IH, <- app_assoc. reflexivity.
    + specialize (IH T (U ++ [(n, x)])). destruct (collect_fields _) as [[[ty un] fl] pn]. cbn in *.
      rewrite IH, <- app_assoc. reflexivity.
    + destruct (collect_fields _) as [[[ty un] fl] pn]. reflexivity.
    + apply bind_field_inv in Eb. inversion Eb.
Qed.

Definition fields_range : stmt :=
  SRange "_" "v6" (ECall "slices.Sorted" [ECall "maps.Keys" [ECall ".Fields" [EVar "v1"]]]) fields_body.

Lemma fields_range_ok en : NoDup (map fst (dd_fields d)) ->
  env_is names1 [("v0", VD (DU c)); ("v1", VD (DNode d)); ("v2", VD (DDef def)); ("v4", VMap []); ("v5", VMap [])] en ->
  let x := collect_fields (bound_fields c def (dd_kind d) (dd_fields d)) in
  loop_post fields_inv no_break
    match snd (fst x) with
    | [] => LGo (fst (fst (fst x)), snd (fst (fst x)))
    | f :: _ => LRet [VNil; VD (DErr f)]
    end (exec1 fields_range en).
Proof.
  intros Hnd H. cbv zeta. pose proof (fields_fold (sort_fields (dd_fields d)) [] []) as E. cbv zeta in E. cbn [app] in E.
  unfold bound_fields. rewrite <- E. clear E. remember (lfold field_out ([], []) (sort_fields (dd_fields d))) as o eqn:Eo.
  open_env H. unfold fields_range. cbn. rewrite entry_names_fields. cbn. rewrite sort_strs_fields, map_map. subst o.
  apply (range_loop_rule _ _ _ _ _ _ _ field_step). split; [exists []; split; [env_ok|constructor]|split].
  - apply Forall_forall. intros [n v] Hin. apply (proj1 (sort_fields_in _ _)) in Hin.
    apply index_fields, (find_NoDup fst _ _ (n, v) Hnd Hin (str_eqb_refl _)).
    intros y _ Q. symmetry. now apply str_eqb_eq in Q.
  - eapply Permutation_NoDup; [apply Permutation_sym, sort_fields_names_perm|exact Hnd].
Qed.
End Node.

Definition val_of_rcause (rc : rcause) : value dom :=
  match rc with
  | RCErr e => VD (DRErr e)
  | RCDef d => VD (DDef d)
  | _ => VD (DRCause rc)
  end.
Definition enc_causes (l : list rcause) : value dom :=
  match l with [] => VNil | _ => VList (map val_of_rcause l) end.
Definition enc_opt (o : option dd) : value dom := match o with Some cd => VD (DNode cd) | None => VNil end.
Definition enc_cause (r : ures rcause) : ires (value dom) :=
  match r with
  | UOk rc => IOk (VTuple [val_of_rcause rc; VNil])
  | UFail [f] => IOk (VTuple [VNil; VD (DErr f)])
  | UFail _ => IStuck "malformed failure"
  | UPanic w => IPanic w
  end.
Definition enc_rerr (r : ures rerr) : ires (value dom) :=
  match r with
  | UOk e => IOk (VTuple [VD (DRErr e); VNil])
  | UFail [f] => IOk (VTuple [VNil; VD (DErr f)])
  | UFail _ => IStuck "malformed failure"
  | UPanic w => IPanic w
  end.

Lemma rcause_of_val rc : rcause_of (val_of_rcause rc) = Some rc.
Proof. destruct rc; reflexivity. Qed.

Lemma causes_of_enc l : causes_of (enc_causes l) = Some l.
Proof.
  unfold causes_of, enc_causes. destruct l as [|x r]; [reflexivity|].
  generalize (x :: r). clear. induction l as [|y l IH]; simpl; [reflexivity|].
  rewrite rcause_of_val, IH. reflexivity.
Qed.

Lemma append_enc l rc :
  append_val (enc_causes l) (val_of_rcause rc) = XVal (enc_causes (l ++ [rc])).
Proof.
  destruct l as [|x r]; [reflexivity|]. cbn. rewrite map_app. reflexivity.
Qed.

Lemma len_enc l : len_val (enc_causes l) = XVal (VInt (Z.of_nat (List.length l))).
Proof. destruct l as [|x r]; [reflexivity|]. unfold enc_causes, len_val. rewrite map_length. reflexivity. Qed.

Arguments enc_causes : simpl never.
Arguments val_of_rcause : simpl never.

(* `r, e := d.unmarshalCause(x); if e != nil { return nil, e }; acc = append(acc, r)`: the body of the loop over the
   causes in unmarshal and of the one in unmarshalCause *)
Definition cause_iter (acc x r e : string) : stmt :=
  SSeq (SAssign [r; e] (ECall ".unmarshalCause" [EVar "v0"; EVar x]))
    (SSeq (SIf SSkip (ENot (ECall "==" [EVar e; ENilLit])) (SReturn [ENilLit; EVar e]) SSkip)
          (SAssign [acc] (ECall "append" [EVar acc; EVar r]))).
Definition causes_range (acc x r e : string) : stmt :=
  SRange "_" x (ECall ".Causes" [EVar "v1"]) (cause_iter acc x r e).
Arguments cause_iter : simpl never.
Arguments causes_range : simpl never.

Section Causes.
Variables (c : ucfg) (cm : option dd -> ures rcause).
Local Notation no_break := (fun (_ : Empty_set) (_ : env dom) => False).

Definition cause_out (l : list rcause) (o : option dd) : lout dom (list rcause) Empty_set :=
  match cm o with
  | UOk rc => LGo (l ++ [rc])
  | UFail [f] => LRet [VNil; VD (DErr f)]
  | UFail _ => LStuck "malformed failure"
  | UPanic w => LPanic w
  end.

Lemma causes_fold os : forall l, lfold cause_out l os =
  match seq_causes (map cm os) with
  | UOk cs => LGo (l ++ cs)
  | UFail [f] => LRet [VNil; VD (DErr f)]
  | UFail _ => LStuck "malformed failure"
  | UPanic w => LPanic w
  end.
Proof.
  induction os as [|o r IH]; intros l; cbn; [now rewrite app_nil_r|]. unfold cause_out at 1.
  destruct (cm o) as [rc|[|f [|? ?]]|w]; [|reflexivity..]. rewrite IH. destruct (seq_causes (map cm r)); [|reflexivity..].
  now rewrite <- app_assoc.
Qed.

(* while the causes are restored: [acc] holds those restored so far, the slots [frame] stay as they are, and every
   remaining cause is restored by the call as [cm] says *)
Definition causes_inv names acc (frame : env dom) (todo : list (option dd)) (l : list rcause) (en : env dom) : Prop :=
  env_is names (("v0", VD (DU c)) :: (acc, enc_causes l) :: frame) en /\
  Forall (fun o => call ".unmarshalCause" [VD (DU c); enc_opt o] = enc_cause (cm o)) todo.

(* the two loops, by their variables *)
Definition cause_loops (f1 f2 f4 f5 : value dom) : list (list string * list string * env dom) :=
  [(names1, ["v19"; "v20"; "v21"; "v22"], [("v1", f1); ("v2", f2); ("v4", f4); ("v5", f5)]);
   (names2, ["v6"; "v7"; "v8"; "v9"], [("v1", f1); ("v4", f4); ("v5", f5)])].

Lemma cause_step names acc x r e frame f1 f2 f4 f5 :
  In (names, [acc; x; r; e], frame) (cause_loops f1 f2 f4 f5) ->
  forall o todo l i en, causes_inv names acc frame (o :: todo) l en ->
  body_post (causes_inv names acc frame) no_break todo (cause_out l o)
    (exec1 (cause_iter acc x r e) (bind1 dom x (enc_opt o) (bind1 dom "_" (VInt i) en))).
Proof.
  intros Hin o todo l i en (H & [Hco Hcs]%Forall_cons_iff). unfold cause_out, cause_iter.
  destruct Hin as [E|[E|[]]]; injection E as <- <- <- <- <- <-; open_env H;
    (cbn; unfold apply; cbn; rewrite Hco;
     destruct (cm o) as [rc|[|f [|? ?]]|w]; cbn; try reflexivity;
     [ rewrite append_enc; apply body_go; [now left|]; split; [env_ok|exact Hcs]
     | eexists; reflexivity ]).
Qed.

Lemma causes_range_ok names acc x r e frame d f2 f4 f5 :
  In (names, [acc; x; r; e], frame) (cause_loops (VD (DNode d)) f2 f4 f5) ->
  forall en, causes_inv names acc frame (dd_causes d) [] en ->
  loop_post (causes_inv names acc frame) no_break (lfold cause_out [] (dd_causes d)) (exec1 (causes_range acc x r e) en).
Proof.
  intros Hin en [H Hcs]. pose proof (cause_step _ _ _ _ _ _ _ _ _ _ Hin) as St. unfold causes_range.
  destruct Hin as [E|[E|[]]]; injection E as <- <- <- <- <- <-; open_env H; cbn;
    change (cause_vals d) with (map enc_opt (dd_causes d));
    (apply (range_loop_rule _ _ _ _ _ _ _ St); split; [env_ok|exact Hcs]).
Qed.
End Causes.

Definition enc_udef (r : ures udef) : ires (value dom) :=
  match r with
  | UOk d => IOk (VTuple [VD (DDef d); VNil])
  | UFail [f] => IOk (VTuple [VNil; VD (DErr f)])
  | UFail _ => IStuck "malformed failure"
  | UPanic w => IPanic w
  end.

Definition nil_check : stmt := Eval cbv in seq_nth body1 0.
Definition resolve_kind_stmt : stmt := Eval cbv in seq_nth body1 1.
Definition resolve_failed : stmt := Eval cbv in seq_nth body1 2.
Definition make_fields : stmt := Eval cbv in seq_nth body1 3.
Definition make_unknown : stmt := Eval cbv in seq_nth body1 4.
Definition causes_init : stmt := Eval cbv in seq_nth body1 6.
Definition build_result : stmt := Eval cbv in seq_nth body1 8.
Definition body1_skel : stmt :=
  SSeq nil_check (SSeq resolve_kind_stmt (SSeq resolve_failed (SSeq make_fields (SSeq make_unknown (SSeq fields_range
    (SSeq causes_init (SSeq (causes_range "v19" "v20" "v21" "v22") build_result))))))).
Lemma body1_ok : body1 = body1_skel.
Proof. reflexivity. Qed.
Arguments nil_check : simpl never. Arguments resolve_kind_stmt : simpl never. Arguments resolve_failed : simpl never. Arguments make_fields : simpl never.
Arguments make_unknown : simpl never. Arguments causes_init : simpl never. Arguments build_result : simpl never.
Arguments fields_range : simpl never.

Lemma unmarshal_body_ok c d :
  NoDup (map fst (dd_fields d)) ->
  (forall k, call ".resolveKind" [VD (DU c); VStr k] = enc_udef (resolve_kind_u c k)) ->
  Forall (fun o => call ".unmarshalCause" [VD (DU c); enc_opt o] = enc_cause (cause_model c o)) (dd_causes d) ->
  call_body dom um_ext um_funs call (fst (fst um_fn1)) (snd (fst um_fn1)) body1 [VD (DU c); VD (DNode d)]
  = enc_rerr (unmarshal c d).
Proof.
  intros Hnd Hrk Hcs.
  rewrite body1_ok. unfold body1_skel, call_body.
  cbn [um_fn1 fst snd bind_all map app bind1 update String.eqb Ascii.eqb Bool.eqb].
  unfold nil_check. cbn. unfold resolve_kind_stmt. cbn. unfold apply. cbn. rewrite Hrk.
  destruct d as [msg kind ty fields stack causes unk]. rewrite unmarshal_node. unfold node_err. cbn [dd_kind].
  destruct (resolve_kind_u c kind) as [def|fs|w]; cbn.
  2:{ unfold resolve_failed. cbn. destruct fs as [|f0 [|? ?]]; reflexivity. }
  2:{ reflexivity. }
  unfold resolve_failed. cbn. unfold make_fields. cbn. unfold make_unknown. cbn.
  destruct (fields_collected c def kind fields) as (typed & unknown & fl & Fc). rewrite Fc.
  set (d := DD msg kind ty fields stack causes unk) in *.
  match goal with |- context [exec1 fields_range ?en] =>
    pose proof (fields_range_ok c d def en Hnd ltac:(env_ok)) as L end.
  cbv zeta in L. cbn [d dd_kind dd_fields] in L. rewrite Fc in L. destruct fl as [|f fr]; hnf in L.
  2:{ destruct L as (en' & ->). reflexivity. }
  destruct L as (en' & -> & (Ugl & H & HU) & _). cbn [ibind snd fst]. open_env H. unfold causes_init. cbn.
  match goal with |- context [exec1 (causes_range _ _ _ _) ?en] =>
    unshelve epose proof (causes_range_ok c (cause_model c) _ _ _ _ _ _ d (VD (DDef def)) (VMap (encT typed)) (VMap Ugl)
                            (or_introl eq_refl) en (conj _ Hcs)) as L;
      [env_ok|] end.
  rewrite causes_fold in L. unfold causes_model. cbn [d dd_causes] in L.
  destruct (seq_causes _) as [cs|[|f [|? ?]]|w]; hnf in L;
    [|rewrite L; reflexivity|destruct L as (en' & ->); reflexivity|rewrite L; reflexivity..].
  destruct L as (en' & -> & H & _). open_env H. unfold build_result. cbn.
  rewrite causes_of_enc, typed_of_encT, (unknown_of_invU _ _ HU). reflexivity.
Qed.

Fixpoint seq_drop (s : stmt) (i : nat) : stmt :=
  match i, s with
  | O, _ => s
  | S j, SSeq _ b => seq_drop b j
  | S _, _ => SSkip
  end.

Definition then2 : stmt := Eval cbv in if_then (seq_nth body2 1).
Definition internal_check : stmt := Eval cbv in seq_nth then2 0.
Definition cause_tail : stmt := Eval cbv in seq_drop then2 7.
Definition cause_suffix : stmt := SSeq (causes_range "v6" "v7" "v8" "v9") cause_tail.
(* message and type name of an unknown cause get their defaults, the nested causes start empty *)
Definition cause_prefix (rest : stmt) : stmt :=
  SSeq (seq_nth then2 1) (SSeq (seq_nth then2 2) (SSeq (seq_nth then2 3) (SSeq (seq_nth then2 4) (SSeq (seq_nth then2 5) rest)))).
Definition call_unmarshal : stmt := Eval cbv in seq_nth body2 0.
Definition return_restored : stmt := Eval cbv in seq_nth body2 2.
Definition body2_skel : stmt :=
  SSeq call_unmarshal (SSeq (SIf SSkip (ENot (ECall "==" [EVar "v3"; ENilLit])) (SSeq internal_check (cause_prefix cause_suffix)) SSkip) return_restored).
Lemma body2_ok : body2 = body2_skel.
Proof. reflexivity. Qed.
Arguments internal_check : simpl never. Arguments cause_tail : simpl never. Arguments cause_suffix : simpl never.
Arguments cause_prefix : simpl never. Arguments call_unmarshal : simpl never. Arguments return_restored : simpl never.

Lemma cause_prefix_ok d rest en : env_is names2 [("v1", VD (DNode d))] en ->
  exec1 (cause_prefix rest) en =
  exec1 rest (update dom "v6" VNil
               (update dom "v5" (VStr (if str_eqb (dd_ty d) "" then "<unknown>" else dd_ty d))
                 (update dom "v4" (VStr (if str_eqb (dd_msg d) "" then dd_unk d else dd_msg d)) en))).
Proof.
  intros H. open_env H. unfold cause_prefix. cbn.
  destruct (str_eqb (dd_msg d) ""); cbn; destruct (str_eqb (dd_ty d) ""); reflexivity.
Qed.

Definition returns (r : ures rcause) (res : ires (env dom * ctl dom)) : Prop :=
  match r with
  | UOk rc => exists en, res = IOk (en, CRet [val_of_rcause rc; VNil])
  | UFail [f] => exists en, res = IOk (en, CRet [VNil; VD (DErr f)])
  | UFail _ => res = IStuck "malformed failure"
  | UPanic w => res = IPanic w
  end.

Lemma cause_suffix_ok c d m t en :
  (forall m, call ".resolveDefinitionFromMessage" [VD (DU c); VStr m] = IOk (resolve_pair c m)) ->
  Forall (fun o => call ".unmarshalCause" [VD (DU c); enc_opt o] = enc_cause (cause_model c o)) (dd_causes d) ->
  env_is names2 [("v0", VD (DU c)); ("v6", VNil); ("v1", VD (DNode d)); ("v4", VStr m); ("v5", VStr t)] en ->
  returns
    match causes_model c (dd_causes d) with
    | UFail f => UFail f
    | UPanic w => UPanic w
    | UOk [] =>
        match (if str_eqb t definition_type_name then resolve_kind_def (u_defs c) m else None) with
        | Some rd => UOk (RCDef rd)
        | None => match lookup_sentinel c t m with Some id => UOk (RCSentinel id) | None => UOk (RCUnknown m t []) end
        end
    | UOk nested => UOk (RCUnknown m t nested)
    end (exec1 cause_suffix en).
Proof.
  intros Hrd Hcs H.
  pose proof (causes_range_ok c (cause_model c) _ _ _ _ _ _ d (VD (DNode d)) _ _ (or_intror (or_introl eq_refl)) en (conj H Hcs)) as L.
  rewrite causes_fold in L. unfold causes_model, cause_suffix. cbn [exec].
  destruct (seq_causes _) as [cs|[|f [|? ?]]|w]; hnf in L;
    [|rewrite L; reflexivity|destruct L as (en' & ->); eexists; reflexivity|rewrite L; reflexivity..].
  destruct L as (en' & -> & H' & _). cbn [ibind snd fst]. open_env H'. unfold cause_tail. cbn. rewrite len_enc.
  destruct cs as [|x r]; cbn.
  2:{ rewrite causes_of_enc. cbn. eexists. reflexivity. }
  destruct (str_eqb t definition_type_name); cbn.
  - rewrite Hrd. unfold resolve_pair. destruct (resolve_kind_def (u_defs c) m); cbn; [eexists; reflexivity|].
    destruct (lookup_sentinel c t m); cbn; [|rewrite causes_of_enc; cbn]; eexists; reflexivity.
  - destruct (lookup_sentinel c t m); cbn; [|rewrite causes_of_enc; cbn]; eexists; reflexivity.
Qed.

Lemma cause_body_ok c o :
  call ".unmarshal" [VD (DU c); enc_opt o] = enc_rerr (unmarshal_top c o) ->
  (forall m, call ".resolveDefinitionFromMessage" [VD (DU c); VStr m] = IOk (resolve_pair c m)) ->
  (forall d, o = Some d ->
     Forall (fun o' => call ".unmarshalCause" [VD (DU c); enc_opt o'] = enc_cause (cause_model c o')) (dd_causes d)) ->
  call_body dom um_ext um_funs call (fst (fst um_fn2)) (snd (fst um_fn2)) body2 [VD (DU c); enc_opt o]
  = enc_cause (cause_model c o).
Proof.
  intros Hun Hrd Hcs.
  rewrite body2_ok. unfold body2_skel, call_body.
  cbn [um_fn2 fst snd bind_all map app bind1 update String.eqb Ascii.eqb Bool.eqb].
  unfold call_unmarshal. cbn. unfold apply. cbn. rewrite Hun.
  destruct o as [d|].
  2:{ cbn. unfold internal_check. cbn. reflexivity. }
  cbn [unmarshal_top cause_model enc_opt].
  destruct (both_inv c d) as [Hs _]. specialize (Hcs d eq_refl).
  destruct d as [msg kind ty fields stack causes unk]. rewrite unmarshal_cause_node.
  set (d := DD msg kind ty fields stack causes unk) in *.
  destruct (unmarshal c d) as [e0|fs|w]; [| |destruct Hs].
  - cbn. unfold return_restored. cbn. reflexivity.
  - destruct Hs as (f & -> & _). unfold node_cause, has_internal. cbn. unfold internal_check. cbn.
    destruct (str_eqb (fl_class f) cls_internal); cbn; [reflexivity|].
    rewrite (cause_prefix_ok d) by env_ok. cbn [update String.eqb Ascii.eqb Bool.eqb dd_msg dd_ty dd_unk d].
    match goal with |- context [exec1 cause_suffix ?en] =>
      pose proof (cause_suffix_ok c d _ _ en Hrd Hcs ltac:(env_ok)) as R end.
    cbn [dd_causes d] in R.
    match type of R with returns ?r _ => destruct r as [rc|[|f0 [|? ?]]|w0] end; cbn in R;
      try (destruct R as (en' & ->)); try rewrite R; reflexivity.
Qed.

Definition top_model (c : ucfg) (od : option dd) (decerr : bool) : ures rerr :=
  if decerr then UFail [{| fl_class := cls_decode; fl_kind := ""; fl_field := "" |}] else unmarshal_top c od.

Lemma top_body_ok c od decerr :
  call ".unmarshal" [VD (DU c); enc_opt od] = enc_rerr (unmarshal_top c od) ->
  call_body dom um_ext um_funs call (fst (fst um_fn0)) (snd (fst um_fn0)) (fn_body um_fn0) [VD (DU c); input_val od decerr]
  = enc_rerr (top_model c od decerr).
Proof.
  intros Hun. unfold call_body, top_model, input_val.
  destruct decerr; [reflexivity|].
  destruct od as [d|]; cbn; unfold apply; cbn; cbn in Hun; rewrite Hun; cbn.
  - destruct (unmarshal c d) as [e|fs|w]; cbn; [reflexivity| |reflexivity]. destruct fs as [|f0 [|? ?]]; reflexivity.
  - reflexivity.
Qed.
End WithCall.

(* field names are the keys of a Go map: distinct at every node *)
Fixpoint dd_nodup (d : dd) : Prop :=
  match d with
  | DD _ _ _ fs _ cs _ =>
      NoDup (map fst fs) /\
      (fix all (l : list (option dd)) : Prop :=
         match l with
         | [] => True
         | None :: r => all r
         | Some c :: r => dd_nodup c /\ all r
         end) cs
  end.

Lemma depth_child m k t fs st cs u cd :
  In (Some cd) cs -> (dd_depth cd < dd_depth (DD m k t fs st cs u))%nat.
Proof.
  cbn [dd_depth]. induction cs as [|[x|] r IH]; intros Hin; [contradiction| |].
  - destruct Hin as [E|Hin]; [inversion E; subst; lia|]. specialize (IH Hin). lia.
  - destruct Hin as [E|Hin]; [discriminate|]. apply IH. exact Hin.
Qed.

Lemma nodup_child m k t fs st cs u cd :
  dd_nodup (DD m k t fs st cs u) -> In (Some cd) cs -> dd_nodup cd.
Proof.
  cbn [dd_nodup]. intros [_ H]. induction cs as [|[x|] r IH]; intros Hin; [contradiction| |].
  - destruct H as [Hx Hr]. destruct Hin as [E|Hin]; [inversion E; subst; exact Hx|]. apply IH; assumption.
  - destruct Hin as [E|Hin]; [discriminate|]. apply IH; assumption.
Qed.

Lemma run_S n f vs :
  run dom um_ext um_funs (S n) f vs =
  match fun_lookup f um_funs with
  | Some (params, locals, body) => call_body dom um_ext um_funs (run dom um_ext um_funs n) params locals body vs
  | None => IStuck ("no such function " ++ f)
  end.
Proof. reflexivity. Qed.

Lemma run_resolve_kind n c k :
  um_run (S n) ".resolveKind" [VD (DU c); VStr k] = enc_udef (resolve_kind_u c k).
Proof.
  unfold um_run. rewrite run_S. unfold call_body, resolve_kind_u. cbn.
  destruct (u_default c) as [dflt|]; cbn.
  - destruct (u_strict c); cbn.
    + unfold resolve_pair. destruct (resolve_kind_def (u_defs c) k); cbn; reflexivity.
    + reflexivity.
  - unfold resolve_pair. destruct (resolve_kind_def (u_defs c) k); cbn; reflexivity.
Qed.

Lemma run_resolve_def n c m :
  um_run (S n) ".resolveDefinitionFromMessage" [VD (DU c); VStr m] = IOk (resolve_pair c m).
Proof. reflexivity. Qed.

Lemma run_unmarshal_nil n c :
  um_run (S n) ".unmarshal" [VD (DU c); VNil] = enc_rerr (UFail [internal_failure]).
Proof. reflexivity. Qed.

Lemma run_cause_nil n c :
  um_run (S (S n)) ".unmarshalCause" [VD (DU c); VNil] = enc_cause (UFail [internal_failure]).
Proof.
  unfold um_run. rewrite run_S.
  apply (cause_body_ok (run dom um_ext um_funs (S n)) c None).
  - apply run_unmarshal_nil.
  - intros m. apply run_resolve_def.
  - intros d E. discriminate.
Qed.

Theorem um_source_is_model c : forall d, dd_nodup d -> forall n, (2 * dd_depth d <= n)%nat ->
  um_run (S n) ".unmarshal" [VD (DU c); VD (DNode d)] = enc_rerr (unmarshal c d) /\
  um_run (S (S n)) ".unmarshalCause" [VD (DU c); VD (DNode d)] = enc_cause (unmarshal_cause c d).
Proof.
  induction d as [m k t fs st cs u IH] using dd_Forall_ind. intros Hwf n Hn.
  set (d := DD m k t fs st cs u) in *.
  assert (Hd1 : (1 <= dd_depth d)%nat) by (cbn; lia).
  assert (Hchild : forall fuel, (2 * dd_depth d <= S fuel)%nat ->
            Forall (fun o => run dom um_ext um_funs (S fuel) ".unmarshalCause" [VD (DU c); enc_opt o] = enc_cause (cause_model c o)) cs).
  { intros fuel Hf. apply Forall_forall. intros [cd|] Hin.
    - pose proof (depth_child m k t fs st cs u cd Hin) as Hlt. fold d in Hlt.
      destruct fuel as [|fuel]; [lia|].
      apply (proj1 (Forall_forall _ _) IH (Some cd) Hin (nodup_child m k t fs st cs u cd Hwf Hin) fuel). lia.
    - destruct fuel as [|fuel]; [lia|]. apply run_cause_nil. }
  assert (Hu : forall fuel, (2 * dd_depth d <= fuel)%nat ->
            um_run (S fuel) ".unmarshal" [VD (DU c); VD (DNode d)] = enc_rerr (unmarshal c d)).
  { intros fuel Hf. unfold um_run. rewrite run_S.
    apply (unmarshal_body_ok (run dom um_ext um_funs fuel) c d).
    - destruct Hwf as [H _]. exact H.
    - intros k0. destruct fuel as [|fuel]; [lia|]. apply run_resolve_kind.
    - destruct fuel as [|fuel]; [lia|]. apply Hchild. lia. }
  split; [apply Hu; exact Hn|].
  unfold um_run. rewrite run_S.
  apply (cause_body_ok (run dom um_ext um_funs (S n)) c (Some d)).
  - apply Hu. exact Hn.
  - intros m0. apply run_resolve_def.
  - intros d0 E. inversion E; subst d0. apply Hchild. lia.
Qed.

Theorem um_top_source_is_model c od decerr :
  match od with Some d => dd_nodup d | None => True end ->
  forall n, (2 * match od with Some d => dd_depth d | None => O end + 1 <= n)%nat ->
  um_run (S n) ".Unmarshal" [VD (DU c); input_val od decerr] = enc_rerr (top_model c od decerr).
Proof.
  intros Hwf n Hn. unfold um_run. rewrite run_S.
  apply (top_body_ok (run dom um_ext um_funs n) c od decerr).
  destruct od as [d|].
  - destruct n as [|n]; [lia|]. apply (um_source_is_model c d Hwf n). lia.
  - destruct n as [|n]; [lia|]. apply run_unmarshal_nil.
Qed.

Lemma source_is_top_model c od decerr :
  match od with Some d => dd_nodup d | None => True end ->
  src_unmarshal_top (fuel_for od) c od decerr = Some (top_model c od decerr).
Proof.
  intros Hwf. unfold src_unmarshal_top, fuel_for.
  replace (2 * match od with Some d => dd_depth d | None => 0 end + 2)%nat
    with (S (2 * match od with Some d => dd_depth d | None => 0 end + 1))%nat by lia.
  fold (um_run (S (2 * match od with Some d => dd_depth d | None => 0%nat end + 1)) ".Unmarshal" [VD (DU c); input_val od decerr]).
  rewrite (um_top_source_is_model c od decerr Hwf) by lia.
  unfold top_model. destruct decerr; [reflexivity|]. destruct od as [d|]; [|reflexivity]. cbn [unmarshal_top].
  destruct (both_inv c d) as [Hs _]. destruct (unmarshal c d) as [e|fs|w]; cbn in Hs; [reflexivity| |destruct Hs].
  destruct Hs as (f & -> & _). reflexivity.
Qed.

Lemma source_total c od decerr :
  match od with Some d => dd_nodup d | None => True end ->
  exists r, src_unmarshal_top (fuel_for od) c od decerr = Some r /\
    match r with
    | UOk _ => True
    | UFail fs => exists f, fs = [f] /\ (fl_class f = cls_decode \/ fl_class f = cls_kind \/ fl_class f = cls_field \/ fl_class f = cls_internal)
    | UPanic _ => False
    end.
Proof.
  intros Hwf. exists (top_model c od decerr). split; [exact (source_is_top_model c od decerr Hwf)|].
  unfold top_model. destruct decerr; [eexists; split; [reflexivity|now left]|].
  destruct od as [d|]; cbn [unmarshal_top]; [|eexists; split; [reflexivity|]; cbn; auto].
  destruct (both_inv c d) as [Hs _]. destruct (unmarshal c d) as [e|fs|w]; cbn in Hs; [exact I| |destruct Hs].
  destruct Hs as (f & -> & Hf). exists f. split; [reflexivity|]. destruct Hf; cbn; auto.
Qed.
