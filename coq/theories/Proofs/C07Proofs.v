(* C07 proofs, three parts.  (1) The renderers over the pruned tree are structural.  (2) json.Marshal and %#v
   re-enter the graph and are modelled with fuel: a rank along the edges bounds the fuel that is needed, more
   fuel never changes a result, and for json a run that is out of fuel |g| is out of every fuel (pigeonhole on
   the nodes whose result still changes); then the check of one render.  (3) The source-snippet reader and
   its process-wide memo; then the check of a sequence of renders. *)
From Errdef Require Import Base.Str Base.ListFacts Base.Outcome Model.Tree Spec.Unfold Proofs.C06Proofs Model.Render07 Check.C07.

Lemma concat_opt_map {A B} (f : A -> option (list B)) h l :
  (forall x, In x l -> f x = Some (h x)) -> concat_opt (map f l) = Some (flat_map h l).
Proof.
  induction l as [|x r IH]; intros H; simpl; [reflexivity|].
  rewrite (H x (or_introl eq_refl)), IH by (intros y Hy; apply H; now right). reflexivity.
Qed.

Lemma fmt_node_preorder g at_ : a_cycf at_ = [] ->
  forall t d, fmt_node g at_ d t = Some (preorder d t).
Proof.
  intros Hc. induction t as [n c kids IH] using tree_ind'. intros d.
  cbn [fmt_node preorder]. unfold details_return. rewrite Hc. cbn [inb existsb negb]. rewrite andb_false_r.
  rewrite (concat_opt_map _ (preorder (S d))); [reflexivity|]. rewrite Forall_forall in IH. intros t Hin. apply IH, Hin.
Qed.

Lemma fmt_nodes_preorder g at_ : a_cycf at_ = [] ->
  forall ts d, fmt_nodes g at_ d ts = Some (flat_map (preorder d) ts).
Proof. intros Hc ts d. apply concat_opt_map. intros t _. now apply fmt_node_preorder. Qed.

(* Node.LogValue and Walk are the same traversal *)
Lemma node_log_preorder : forall t d, node_log d t = preorder d t.
Proof. reflexivity. Qed.

Lemma render_tree_total g at_ k recv ts : a_cycf at_ = [] ->
  render_tree g at_ k recv ts = Some (if walks k then preorder_all ts else []).
Proof.
  intros Hc. destruct k; cbn [render_tree walks]; try reflexivity.
  unfold format_plus, details_return. rewrite Hc. cbn [inb existsb negb].
  rewrite fmt_nodes_preorder by exact Hc. reflexivity.
Qed.

Lemma tree_renderers_total g at_ recv k : G g -> recv < List.length g -> a_cycf at_ = [] ->
  forall fuel, fuel_bound g <= fuel ->
  exists ts, build_cause_tree fuel g recv = Some ts /\
             render_tree g at_ k recv ts = Some (if walks k then preorder_all ts else []) /\
             (forall toks, render_tree g at_ k recv ts = Some toks ->
                List.length toks = if walks k then list_sum (map tsize ts) else 0).
Proof.
  intros HG Hr Hc fuel Hf. destruct (terminates g recv HG Hr fuel Hf) as [ts E].
  exists ts. split; [exact E|]. split; [apply render_tree_total; exact Hc|].
  intros toks H. rewrite render_tree_total in H by exact Hc. inversion H; subst.
  destruct (walks k); [apply preorder_all_length|reflexivity].
Qed.

(* a field value that contains itself: %+v does not return (K8) *)
Definition g_leaf : graph := [ {| g_key := Some 1%N; g_unwrap := UMulti []; g_errdef := true |} ].
Lemma plus_cyclic_field_refuted :
  G g_leaf /\ unwrap_tree g_leaf 0 = Some [] /\
  render_tree g_leaf {| a_bad := [0]; a_cycf := [0]; a_inline := [] |} KPlus 0 [] = None.
Proof.
  split; [apply Gb_sound; vm_compute; reflexivity|]. split; vm_compute; reflexivity.
Qed.

Definition fin (r : jres) : Prop := r <> JOut.

Lemma fin_dec r : {r = JOut} + {fin r}.
Proof. destruct r; [right|right|left]; congruence. Qed.

Lemma fin_ok_or_fail r : fin r -> (exists sh, r = JOk sh) \/ r = JFail.
Proof. destruct r; [eauto|auto|intros []; reflexivity]. Qed.

Lemma jcons_eq d r x : (forall s, x <> JOk s) -> (jcons d r = x <-> r = x).
Proof. intros Hx. destruct r; simpl; split; try congruence; intros <-; now destruct (Hx (d :: sh)). Qed.

Lemma fin_jcons d r : fin (jcons d r) <-> fin r.
Proof. unfold fin. now rewrite jcons_eq by discriminate. Qed.

Lemma jseq_map_not {A} (f : A -> jres) l x : (forall s, x <> JOk s) ->
  (forall a, In a l -> f a <> x) -> jseq_map f l <> x.
Proof.
  intros Hx. induction l as [|a r IH]; intros H; cbn [jseq_map]; [apply not_eq_sym, Hx|].
  pose proof (H a (or_introl eq_refl)) as Ha. specialize (IH (fun b Hb => H b (or_intror Hb))).
  destruct (f a); [|exact Ha..]. destruct (jseq_map f r); [apply not_eq_sym, Hx|exact IH..].
Qed.

Lemma jseq_map_mono {A} (f1 f2 : A -> jres) l :
  (forall a, In a l -> fin (f1 a) -> f2 a = f1 a) -> fin (jseq_map f1 l) -> jseq_map f2 l = jseq_map f1 l.
Proof.
  unfold fin. induction l as [|a r IH]; intros H F; cbn [jseq_map] in *; [reflexivity|].
  assert (Fa : f1 a <> JOut) by (intros E; rewrite E in F; now apply F).
  rewrite (H a (or_introl eq_refl) Fa). destruct (f1 a); [|reflexivity..].
  rewrite IH; [reflexivity|intros b Hb; apply H; now right|]. intros E. rewrite E in F. now apply F.
Qed.

Lemma marshal_err_S f g bad n d : marshal_err (S f) g bad n d =
  if inb n bad then JFail
  else match unwrap_tree g n with
       | None => JOut
       | Some ts => marshal_nodes g (marshal_err f g bad) d ts
       end.
Proof. reflexivity. Qed.

Inductive AllN (P : nat -> Prop) : tree -> Prop :=
| AllN_node n c kids : P n -> Forall (AllN P) kids -> AllN P (Node n c kids).

Lemma AllN_impl (P Q : nat -> Prop) : (forall n, P n -> Q n) -> forall t, AllN P t -> AllN Q t.
Proof.
  intros H. induction t as [n c kids IH] using tree_ind'. intros A. inversion A; subst.
  constructor; [auto|]. rewrite Forall_forall in *. auto.
Qed.

Lemma build_list_AllN (bn : nat -> vmap -> bres (option tree)) (P : nat -> Prop) cs :
  (forall c vm t vm', In (Some c) cs -> bn c vm = Some (Some t, vm') -> AllN P t) ->
  forall vm ts vm', build_list bn cs vm = Some (ts, vm') -> Forall (AllN P) ts.
Proof.
  induction cs as [|[c|] r IH]; intros Hbn vm ts vm' H; simpl in H.
  - inversion H; subst. constructor.
  - destruct (bn c vm) as [[ot vm1]|] eqn:E1; [|discriminate].
    destruct (build_list bn r vm1) as [[ts2 vm2]|] eqn:E2; [|discriminate].
    inversion H; subst. assert (IH2 := IH (fun c' vm t vm' Hc => Hbn c' vm t vm' (or_intror Hc)) _ _ _ E2).
    destruct ot as [t|]; [|exact IH2]. constructor; [|exact IH2]. eapply Hbn; [left; reflexivity|exact E1].
  - eapply IH; [|exact H]. intros c' vm0 t vm0' Hc. apply Hbn. right. exact Hc.
Qed.

(* reachability without a definition of it: the nodes of a built tree are related to the root by
   every reflexive relation that is closed under edges *)
Section Reach.
  Variable g : graph.
  Variable R : nat -> nat -> Prop.
  Hypothesis R_refl : forall n, n < List.length g -> R n n.
  Hypothesis R_edge : forall n nd c m, nth_error g n = Some nd -> In (Some c) (causes_of nd) -> R c m -> R n m.

  Lemma build_node_R : forall fuel n vm t vm', build_node fuel g n vm = Some (Some t, vm') -> AllN (R n) t.
  Proof.
    induction fuel as [|f IH]; intros n vm t vm' H; [discriminate|].
    cbn [build_node] in H. destruct (nth_error g n) as [nd|] eqn:En; [|discriminate].
    assert (Hn : R n n) by (apply R_refl, nth_error_Some; congruence).
    assert (Kids : forall vm0 kids vm2, build_list (build_node f g) (causes_of nd) vm0 = Some (kids, vm2) ->
                   Forall (AllN (R n)) kids).
    { apply build_list_AllN. intros c vm1 t1 vm1' Hc E1. eapply AllN_impl; [|eapply IH; exact E1].
      intros m. apply (R_edge n nd c m En Hc). }
    destruct (g_key nd) as [ptr|].
    - destruct (vmem ptr vm); [discriminate|].
      destruct (build_list (build_node f g) (causes_of nd) (vset ptr ptr vm)) as [[kids vm2]|] eqn:E; [|discriminate].
      destruct (on_exit ptr vm2) as [cyc vm3]. inversion H; subst. constructor; [exact Hn|]. eapply Kids, E.
    - destruct (build_list (build_node f g) (causes_of nd) vm) as [[kids vm2]|] eqn:E; [|discriminate].
      inversion H; subst. constructor; [exact Hn|]. eapply Kids, E.
  Qed.

  (* the tree below n: one edge, then R *)
  Lemma unwrap_tree_R (P : nat -> Prop) n nd ts : nth_error g n = Some nd ->
    (forall c m, In (Some c) (causes_of nd) -> R c m -> P m) ->
    unwrap_tree g n = Some ts -> Forall (AllN P) ts.
  Proof.
    intros En HP H. destruct (build_cause_tree_inv _ _ _ _ H) as [nd' [vm [En' E]]].
    rewrite En in En'. inversion En'; subst nd'. revert E. apply build_list_AllN.
    intros c vm1 t vm1' Hc E1. eapply AllN_impl; [|eapply build_node_R; exact E1]. intros m. apply HP, Hc.
  Qed.
End Reach.

(* says that no cycle of the graph passes through an errdef node *)
Definition edge_ranked (g : graph) (rank : nat -> nat) : Prop :=
  forall n nd c, nth_error g n = Some nd -> In (Some c) (causes_of nd) ->
    rank c <= rank n /\ (g_errdef nd = true -> rank c < rank n).

Lemma unwrap_tree_ranked g rank n nd ts : edge_ranked g rank ->
  nth_error g n = Some nd -> g_errdef nd = true -> unwrap_tree g n = Some ts ->
  Forall (AllN (fun m => rank m < rank n)) ts.
Proof.
  intros Hr En He. apply (unwrap_tree_R g (fun n m => rank m <= rank n)) with (nd := nd); auto.
  - intros n0 nd0 c m E0 Hc Hm. apply (Nat.le_trans _ _ _ Hm), (Hr n0 nd0 c E0 Hc).
  - intros c m Hc Hm. apply (Nat.le_lt_trans _ _ _ Hm), (Hr n nd c En Hc), He.
Qed.

Lemma unwrap_tree_inrange g n ts : unwrap_tree g n = Some ts ->
  Forall (AllN (fun m => m < List.length g)) ts.
Proof.
  intros H. destruct (build_cause_tree_inv _ _ _ _ H) as [nd [_ [En _]]].
  apply (unwrap_tree_R g (fun _ m => m < List.length g)) with (n := n) (nd := nd); auto.
Qed.

Lemma marshal_node_not g (re : nat -> nat -> jres) x (P : nat -> Prop) : (forall s, x <> JOk s) ->
  (forall m d, P m -> is_errdef g m = true -> re m d <> x) ->
  forall t d, AllN P t -> marshal_node g re d t <> x.
Proof.
  intros Hx Hre. induction t as [m c kids IH] using tree_ind'. intros d A. inversion A; subst.
  cbn [marshal_node]. destruct (is_errdef g m) eqn:Em; rewrite (jcons_eq _ _ _ Hx); [now apply Hre|].
  apply jseq_map_not; [exact Hx|]. rewrite Forall_forall in *. intros t Hin. apply IH; auto.
Qed.

Lemma is_errdef_nth g n : is_errdef g n = true -> exists nd, nth_error g n = Some nd /\ g_errdef nd = true.
Proof. unfold is_errdef. destruct (nth_error g n) as [nd|]; [|discriminate]. eauto. Qed.

Lemma G_errdef_trees g : G g -> forall n, is_errdef g n = true -> unwrap_tree g n <> None.
Proof.
  intros HG n He E. destruct (is_errdef_nth _ _ He) as [nd [En _]].
  destruct (unwrap_tree_total g n HG) as [ts Ets]; [apply nth_error_Some|]; congruence.
Qed.

(* fuel above the rank suffices: the nested json.Marshal calls are on errdef nodes of smaller rank.
   Of the guard only this is used: UnwrapTree returns at every errdef node *)
Lemma marshal_err_ranked g bad rank :
  (forall n, is_errdef g n = true -> unwrap_tree g n <> None) -> edge_ranked g rank ->
  forall f n d, rank n < f -> is_errdef g n = true -> fin (marshal_err f g bad n d).
Proof.
  intros HT Hr. induction f as [|f IH]; intros n d Hrk He; [lia|]. rewrite marshal_err_S.
  destruct (inb n bad); [discriminate|].
  destruct (is_errdef_nth _ _ He) as [nd [En Hd]].
  destruct (unwrap_tree g n) as [ts|] eqn:Ets; [|now apply HT in He].
  pose proof (unwrap_tree_ranked g rank n nd ts Hr En Hd Ets) as A. rewrite Forall_forall in A.
  apply jseq_map_not; [discriminate|]. intros t Hin. refine (marshal_node_not g _ JOut _ _ _ t d (A t Hin)); [discriminate|].
  intros m d' Hm Hem. apply IH; [cbv beta in Hm; lia|exact Hem].
Qed.

Lemma marshal_err_fin g bad rank :
  (forall n, is_errdef g n = true -> unwrap_tree g n <> None) -> edge_ranked g rank ->
  forall f n d, rank n <= f -> is_errdef g n = true -> fin (marshal_err (S f) g bad n d).
Proof. intros HT Hr f n d Hrk. apply (marshal_err_ranked g bad rank HT Hr). lia. Qed.

Lemma json_terminates g bad rank :
  (forall n, is_errdef g n = true -> unwrap_tree g n <> None) -> edge_ranked g rank ->
  forall n, is_errdef g n = true ->
  exists fuel, (exists sh, marshal_g fuel g bad n = JOk sh) \/ marshal_g fuel g bad n = JFail.
Proof.
  intros HT Hr n He. exists (S (rank n)).
  exact (fin_ok_or_fail _ (marshal_err_fin g bad rank HT Hr (rank n) n 0 (le_n _) He)).
Qed.

Lemma marshal_node_mono g (re1 re2 : nat -> nat -> jres) :
  (forall m d, fin (re1 m d) -> re2 m d = re1 m d) ->
  forall t d, fin (marshal_node g re1 d t) -> marshal_node g re2 d t = marshal_node g re1 d t.
Proof.
  intros Hre. induction t as [m c kids IH] using tree_ind'. intros d F. cbn [marshal_node] in *.
  destruct (is_errdef g m); apply fin_jcons in F; f_equal; [apply Hre, F|].
  apply jseq_map_mono; [|exact F]. rewrite Forall_forall in IH. intros t Hin. apply IH, Hin.
Qed.

Lemma marshal_err_mono g bad : forall f n d, fin (marshal_err f g bad n d) ->
  forall f', f <= f' -> marshal_err f' g bad n d = marshal_err f g bad n d.
Proof.
  induction f as [|f IH]; intros n d F f' Hle; [exfalso; apply F; reflexivity|].
  destruct f' as [|f']; [lia|]. rewrite !marshal_err_S in *.
  destruct (inb n bad); [reflexivity|]. destruct (unwrap_tree g n) as [ts|]; [|reflexivity].
  apply jseq_map_mono; [|exact F]. intros t _. apply marshal_node_mono.
  intros m d' F'. apply IH; [exact F'|lia].
Qed.

(* an unencodable field is the only source of an error *)
Lemma marshal_err_nofail g : forall f n d, marshal_err f g [] n d <> JFail.
Proof.
  induction f as [|f IH]; intros n d; [discriminate|]. rewrite marshal_err_S. cbn [inb existsb].
  destruct (unwrap_tree g n) as [ts|] eqn:Et; [|discriminate].
  pose proof (unwrap_tree_inrange g n ts Et) as A. rewrite Forall_forall in A.
  apply jseq_map_not; [discriminate|]. intros t Hin. refine (marshal_node_not g _ JFail _ _ _ t d (A t Hin)); [discriminate|].
  intros m e _ _. apply IH.
Qed.

(* K1: e = D.Wrap(f); f.cause = e *)
Definition g_k1 : graph := [ gp 1%N (USingle (Some 1)); ge 2%N [Some 0] ].

Lemma k1_tree : unwrap_tree g_k1 1 = Some [Node 0 true [Node 1 false []]].
Proof. vm_compute. reflexivity. Qed.

Lemma json_diverges : G g_k1 /\ (forall fuel, marshal_g fuel g_k1 [] 1 = JOut).
Proof.
  split; [apply Gb_sound; vm_compute; reflexivity|].
  unfold marshal_g. assert (H : forall fuel d, marshal_err fuel g_k1 [] 1 d = JOut).
  { induction fuel as [|f IH]; intros d; [reflexivity|].
    rewrite marshal_err_S, k1_tree. cbn [inb existsb marshal_nodes jseq_map marshal_node].
    change (is_errdef g_k1 0) with false. change (is_errdef g_k1 1) with true. cbv iota.
    rewrite IH. reflexivity. }
  intros fuel. apply H.
Qed.

(* the class of a result, its shape forgotten: it does not depend on the depth at which the document starts *)
Inductive jclass := Returned | Failed | OutOfFuel.
Definition cls (r : jres) : jclass := match r with JOk _ => Returned | JFail => Failed | JOut => OutOfFuel end.

Lemma cls_jcons d r : cls (jcons d r) = cls r.
Proof. now destruct r. Qed.

Lemma cls_jseq_map {A} (f f' : A -> jres) l :
  (forall a, In a l -> cls (f a) = cls (f' a)) -> cls (jseq_map f l) = cls (jseq_map f' l).
Proof.
  induction l as [|a r IH]; intros H; [reflexivity|]. cbn [jseq_map].
  pose proof (H a (or_introl eq_refl)) as Ha.
  assert (Hr := IH (fun x Hx => H x (or_intror Hx))).
  destruct (f a), (f' a); simpl in Ha; try discriminate; try reflexivity.
  destruct (jseq_map f r), (jseq_map f' r); simpl in Hr; try discriminate; reflexivity.
Qed.

Lemma cls_marshal_node g re : (forall m d d', cls (re m d) = cls (re m d')) ->
  forall t d d', cls (marshal_node g re d t) = cls (marshal_node g re d' t).
Proof.
  intros Hre. induction t as [m c kids IH] using tree_ind'. intros d d'. cbn [marshal_node].
  destruct (is_errdef g m); rewrite !cls_jcons; [apply Hre|].
  apply cls_jseq_map. intros t Hin. rewrite Forall_forall in IH. apply IH. exact Hin.
Qed.

Lemma cls_marshal_err g bad : forall f n d d', cls (marshal_err f g bad n d) = cls (marshal_err f g bad n d').
Proof.
  induction f as [|f IH]; intros n d d'; [reflexivity|]. rewrite !marshal_err_S.
  destruct (inb n bad); [reflexivity|]. destruct (unwrap_tree g n) as [ts|]; [|reflexivity].
  apply cls_jseq_map. intros t _. apply cls_marshal_node. intros m e e'. apply IH.
Qed.

Lemma out_any_depth g bad f n d d' : marshal_err f g bad n d = JOut -> marshal_err f g bad n d' = JOut.
Proof.
  intros H. pose proof (cls_marshal_err g bad f n d d') as C. rewrite H in C.
  destruct (marshal_err f g bad n d'); simpl in C; congruence.
Qed.

Lemma flip_list {A} (f1 f2 : A -> jres) l :
  (forall a, fin (f1 a) -> f2 a = f1 a) ->
  jseq_map f1 l = JOut -> fin (jseq_map f2 l) ->
  exists a, In a l /\ f1 a = JOut /\ fin (f2 a).
Proof.
  induction l as [|a r IH]; intros Hm H1 H2; cbn [jseq_map] in *; [discriminate|].
  destruct (f1 a) as [s1| |] eqn:E1.
  - assert (E2 : f2 a = JOk s1) by (rewrite <- E1; apply Hm; congruence).
    rewrite E2 in H2.
    destruct (IH Hm) as [x [Hx Hf]].
    + destruct (jseq_map f1 r); congruence.
    + destruct (jseq_map f2 r); congruence.
    + exists x. split; [right; exact Hx|exact Hf].
  - discriminate.
  - exists a. split; [left; reflexivity|]. split; [exact E1|]. intros E2. rewrite E2 in H2. congruence.
Qed.

Lemma flip_node g (re1 re2 : nat -> nat -> jres) (P : nat -> Prop) :
  (forall m d, fin (re1 m d) -> re2 m d = re1 m d) ->
  forall t d, AllN P t -> marshal_node g re1 d t = JOut -> fin (marshal_node g re2 d t) ->
  exists m d', P m /\ re1 m d' = JOut /\ fin (re2 m d').
Proof.
  intros Hm. induction t as [m c kids IH] using tree_ind'. intros d A H1 H2. inversion A; subst.
  cbn [marshal_node] in *. destruct (is_errdef g m); rewrite jcons_eq in H1 by discriminate; apply fin_jcons in H2; [eauto|].
  destruct (flip_list (marshal_node g re1 (S d)) (marshal_node g re2 (S d)) kids) as [t [Hin [E1 E2]]]; auto.
  { intros t. now apply marshal_node_mono. }
  rewrite Forall_forall in *. eapply IH; eauto.
Qed.

Section Decide.
  Variable g : graph.
  Variable bad : list nat.

  (* the fuel at which n first returns is one more than that of some node of its tree (flips_step), and it is a
     function of n (flips_unique): descent_bound then keeps it below |g|, whence json_fuel = |g| + 1 *)
  Definition flips (n k : nat) : Prop :=
    exists d, marshal_err k g bad n d = JOut /\ fin (marshal_err (S k) g bad n d).

  Lemma flips_unique n k k' : flips n k -> flips n k' -> k = k'.
  Proof.
    assert (W : forall a b, flips n a -> flips n b -> a < b -> False).
    { intros a b [d [_ Ha]] [d' [Hb _]] Hlt.
      apply (out_any_depth g bad b n d' d) in Hb.
      rewrite (marshal_err_mono g bad (S a) n d Ha b) in Hb by lia. contradiction. }
    intros H1 H2. destruct (Nat.lt_trichotomy k k') as [L|[E|L]]; [exfalso; exact (W k k' H1 H2 L)|exact E|exfalso; exact (W k' k H2 H1 L)].
  Qed.

  Lemma flips_step n k : flips n (S k) -> exists m, m < List.length g /\ flips m k.
  Proof.
    intros [d [H1 H2]]. rewrite marshal_err_S in H1, H2.
    destruct (inb n bad); [discriminate|]. destruct (unwrap_tree g n) as [ts|] eqn:Et; [|congruence].
    assert (Hm : forall m e, fin (marshal_err k g bad m e) -> marshal_err (S k) g bad m e = marshal_err k g bad m e).
    { intros m e F. apply marshal_err_mono; [exact F|lia]. }
    destruct (flip_list (marshal_node g (marshal_err k g bad) d) (marshal_node g (marshal_err (S k) g bad) d) ts)
      as [t [Hin [E1 E2]]]; auto.
    { intros t. now apply marshal_node_mono. }
    pose proof (unwrap_tree_inrange g n ts Et) as A. rewrite Forall_forall in A.
    destruct (flip_node g _ _ _ Hm t d (A t Hin) E1 E2) as [m [d' [Hr F]]].
    exists m. split; [exact Hr|]. exists d'. exact F.
  Qed.
  Lemma fin_flips n d : forall f, fin (marshal_err f g bad n d) ->
    exists k, marshal_err k g bad n d = JOut /\ fin (marshal_err (S k) g bad n d).
  Proof.
    induction f as [|f IH]; intros F; [exfalso; apply F; reflexivity|].
    destruct (fin_dec (marshal_err f g bad n d)) as [E|E]; [exists f; auto|exact (IH E)].
  Qed.

  Theorem out_decides n d f0 : n < List.length g -> List.length g <= f0 ->
    marshal_err f0 g bad n d = JOut -> forall f d', marshal_err f g bad n d' = JOut.
  Proof.
    intros Hn Hf0 Hout f d'. apply (out_any_depth g bad f n d d').
    destruct (fin_dec (marshal_err f g bad n d)) as [E|E]; [exact E|exfalso].
    destruct (fin_flips n d f E) as [k [H1 H2]].
    pose proof (descent_bound _ flips flips_unique flips_step k n Hn (ex_intro _ d (conj H1 H2))) as B.
    rewrite (marshal_err_mono g bad (S k) n d H2 f0) in Hout by lia. contradiction.
  Qed.
End Decide.

(* the verdict of the check's model: Diverge means out of every fuel *)
Lemma json_fuel_decides g bad n : n < List.length g ->
  (marshal_g (json_fuel g) g bad n = JOut -> forall fuel, marshal_g fuel g bad n = JOut) /\
  (marshal_g (json_fuel g) g bad n <> JOut ->
     forall fuel, json_fuel g <= fuel -> marshal_g fuel g bad n = marshal_g (json_fuel g) g bad n).
Proof.
  intros Hn. unfold marshal_g, json_fuel. split.
  - intros H fuel. eapply out_decides; [exact Hn| |exact H]. lia.
  - intros H fuel Hf. apply marshal_err_mono; [exact H|exact Hf].
Qed.

(* whatever the values of the rank: out of fuel |g| + 1 would be out of fuel rank n + 1 as well *)
Lemma json_fuel_suffices_any_rank g bad rank :
  (forall n, is_errdef g n = true -> unwrap_tree g n <> None) -> edge_ranked g rank ->
  forall n, is_errdef g n = true -> fin (marshal_g (json_fuel g) g bad n).
Proof.
  intros HT Hr n He Hout.
  destruct (is_errdef_nth _ _ He) as [nd [En _]].
  assert (Hn : n < List.length g) by (apply nth_error_Some; congruence).
  pose proof (proj1 (json_fuel_decides g bad n Hn) Hout (S (rank n))) as H.
  exact (marshal_err_fin g bad rank HT Hr (rank n) n 0 (le_n _) He H).
Qed.

Lemma json_fuel_suffices g bad rank : G g -> edge_ranked g rank ->
  forall n, is_errdef g n = true -> rank n <= List.length g ->
  fin (marshal_g (json_fuel g) g bad n).
Proof. intros HG Hr n He _. exact (json_fuel_suffices_any_rank g bad rank (G_errdef_trees g HG) Hr n He). Qed.

(* %#v: no cycle among the inline-kinded nodes *)
Definition inline_ranked (g : graph) (inl : list nat) (rk : nat -> nat) : Prop :=
  forall n nd c, nth_error g n = Some nd -> inb n inl = true -> In (Some c) (causes_of nd) ->
    inb c inl = true -> rk c < rk n.

Lemma gs_walk_fin g inl rk : closed g -> inline_ranked g inl rk ->
  forall f n, rk n < f -> n < List.length g -> inb n inl = true -> fin (gs_walk f g inl n).
Proof.
  intros Hcl Hr. induction f as [|f IH]; intros n Hrk Hn Hin; [lia|]. cbn [gs_walk].
  destruct (nth_error g n) as [nd|] eqn:En; [|apply nth_error_None in En; lia].
  apply fin_jcons, jseq_map_not; [discriminate|]. intros [c|] Hc; [|discriminate].
  destruct (inb c inl) eqn:Ec; [|discriminate]. pose proof (Hr n nd c En Hin Hc Ec).
  apply IH; [lia|eapply Hcl; eauto|exact Ec].
Qed.

Lemma gs_walk_mono g inl : forall f n, fin (gs_walk f g inl n) ->
  forall f', f <= f' -> gs_walk f' g inl n = gs_walk f g inl n.
Proof.
  induction f as [|f IH]; intros n F f' Hle; [exfalso; apply F; reflexivity|].
  destruct f' as [|f']; [lia|]. cbn [gs_walk] in *.
  destruct (nth_error g n) as [nd|]; [|reflexivity]. apply fin_jcons in F.
  f_equal. apply jseq_map_mono; [|exact F]. intros [c|] _; [|reflexivity].
  destruct (inb c inl); [|reflexivity]. intros F'. apply IH; [exact F'|lia].
Qed.

Lemma gs_walk_nofail g inl : forall fuel c, gs_walk fuel g inl c <> JFail.
Proof.
  induction fuel as [|f IH]; intros c; cbn [gs_walk]; [discriminate|].
  destruct (nth_error g c) as [nd|]; [|discriminate]. rewrite jcons_eq by discriminate. apply jseq_map_not; [discriminate|].
  intros [c'|] _; [|discriminate]. destruct (inb c' inl); [apply IH|discriminate].
Qed.

Lemma gostring_nofail fuel g inl direct : gostring_g fuel g inl direct <> JFail.
Proof.
  apply jseq_map_not; [discriminate|]. intros c _. destruct (inb c inl); [apply gs_walk_nofail|discriminate].
Qed.

Lemma gostring_terminates g inl rk direct : closed g -> inline_ranked g inl rk ->
  (forall c, In c direct -> c < List.length g) ->
  forall fuel, (forall c, In c direct -> rk c < fuel) -> exists sh, gostring_g fuel g inl direct = JOk sh.
Proof.
  intros Hcl Hr Hd fuel Hf.
  assert (F : fin (gostring_g fuel g inl direct)).
  { apply jseq_map_not; [discriminate|]. intros c Hc. destruct (inb c inl) eqn:Ec; [|discriminate].
    apply (gs_walk_fin g inl rk Hcl Hr); auto. }
  destruct (fin_ok_or_fail _ F) as [H|H]; [exact H|now destruct (gostring_nofail fuel g inl direct)].
Qed.

(* K7: m := MM{}; m["c"] = []error{m}; e := D.Wrap(m) *)
Definition g_k7 : graph := [ gp 1%N (UMulti [Some 0]); ge 2%N [Some 0] ].
Lemma gostring_diverges :
  G g_k7 /\ (exists ts, unwrap_tree g_k7 1 = Some ts) /\
  (forall fuel, gostring_g fuel g_k7 [0] [0] = JOut).
Proof.
  split; [apply Gb_sound; vm_compute; reflexivity|]. split; [eexists; vm_compute; reflexivity|].
  assert (H : forall fuel, gs_walk fuel g_k7 [0] 0 = JOut).
  { induction fuel as [|f IH]; [reflexivity|]. cbn [gs_walk g_k7 nth_error causes_of g_unwrap gp jseq_map inb existsb Nat.eqb orb].
    rewrite IH. reflexivity. }
  intros fuel. unfold gostring_g. cbn [jseq_map inb existsb Nat.eqb orb]. rewrite H. reflexivity.
Qed.

Lemma model_native_fail r : model_native r = MFail -> c_rk r = RJson /\ a_bad (c_attrs r) <> [].
Proof.
  unfold model_native. destruct (c_rk r) as [k|].
  - destruct k; cbn [walks]; try discriminate;
      try (destruct (unwrap_tree (c_graph r) (c_recv r)); [|discriminate];
           destruct (render_tree _ _ _ _ _); discriminate).
    intros H. exfalso. destruct (gostring_g _ _ _ _) eqn:E; try discriminate.
    exact (gostring_nofail _ _ _ _ E).
  - intros H. split; [reflexivity|].
    destruct (marshal_g _ _ _ _) eqn:E; try discriminate. intros Hb. rewrite Hb in E.
    exact (marshal_err_nofail _ _ _ _ E).
Qed.

Lemma agrees_ok m r : m <> MDiverge -> (m = MFail -> c_rk r = RJson /\ a_bad (c_attrs r) <> []) ->
  agrees m r = true -> ok_render r = true.
Proof.
  intros Hd Hf H. unfold agrees in H. unfold ok_render.
  destruct m as [sh| |]; destruct (c_out r); try discriminate; try congruence.
  - apply andb_true_iff in H as [_ H]. exact H.
  - destruct (Hf eq_refl) as [-> Hb]. cbn. destruct (a_bad (c_attrs r)); [congruence|reflexivity].
Qed.

(* the graph-level guards under which the model of a native render never says Diverge; %#v has no
   counterpart of out_decides, so its rank must stay below gs_fuel = |g| + 1 *)
Definition render_guard (r : rcase) : Prop :=
  let g := c_graph r in
  G g /\ c_recv r < List.length g /\ is_errdef g (c_recv r) = true /\
  a_cycf (c_attrs r) = [] /\
  (exists rank, edge_ranked g rank) /\
  (exists rk, inline_ranked g (a_inline (c_attrs r)) rk /\
              forall c, In c (c_direct r) -> c < List.length g /\ rk c <= List.length g).

Lemma model_native_total r : render_guard r -> model_native r <> MDiverge.
Proof.
  intros [HG [Hr [He [Hc [[rank Hrk] [rk [Hik Hd]]]]]]]. unfold model_native.
  destruct (c_rk r) as [k|].
  - destruct (unwrap_tree_total _ _ HG Hr) as [ts Ets].
    destruct k; cbn [walks]; try discriminate; try (rewrite Ets, render_tree_total by exact Hc; discriminate).
    destruct (gostring_terminates (c_graph r) _ rk (c_direct r) (proj1 HG) Hik (fun c Hin => proj1 (Hd c Hin))
                (gs_fuel (c_graph r))) as [sh ->]; [|discriminate].
    intros c Hin. unfold gs_fuel. destruct (Hd c Hin). lia.
  - destruct (fin_ok_or_fail _ (json_fuel_suffices_any_rank _ (a_bad (c_attrs r)) rank (G_errdef_trees _ HG) Hrk _ He))
      as [[sh ->]| ->]; discriminate.
Qed.

Definition edge_rankedb (g : graph) (rank : nat -> nat) : bool :=
  forallb (fun p : nat * gnode =>
             let (n, nd) := p in
             forallb (fun oc => match oc with
                                | Some c => Nat.leb (rank c) (rank n) && (negb (g_errdef nd) || Nat.ltb (rank c) (rank n))
                                | None => true
                                end) (causes_of nd))
          (combine (seq 0 (List.length g)) g).
Lemma edge_rankedb_sound g rank : edge_rankedb g rank = true -> edge_ranked g rank.
Proof.
  intros H n nd c Hn Hin. apply forallb_indexed with (1 := H) in Hn.
  rewrite forallb_forall in Hn. specialize (Hn _ Hin). simpl in Hn.
  apply andb_true_iff in Hn as [H1 H2]. apply Nat.leb_le in H1. split; [exact H1|].
  intros He. rewrite He in H2. simpl in H2. apply Nat.ltb_lt. exact H2.
Qed.

Definition inline_rankedb (g : graph) (inl : list nat) (rk : nat -> nat) : bool :=
  forallb (fun p : nat * gnode =>
             let (n, nd) := p in
             negb (inb n inl) ||
             forallb (fun oc => match oc with
                                | Some c => negb (inb c inl) || Nat.ltb (rk c) (rk n)
                                | None => true
                                end) (causes_of nd))
          (combine (seq 0 (List.length g)) g).
Lemma inline_rankedb_sound g inl rk : inline_rankedb g inl rk = true -> inline_ranked g inl rk.
Proof.
  intros H n nd c Hn Hi Hin Hc. apply forallb_indexed with (1 := H) in Hn. rewrite Hi in Hn. simpl in Hn.
  rewrite forallb_forall in Hn. specialize (Hn _ Hin). simpl in Hn. rewrite Hc in Hn. simpl in Hn.
  apply Nat.ltb_lt. exact Hn.
Qed.

Definition render_guardb (r : rcase) (rank rk : nat -> nat) : bool :=
  let g := c_graph r in
  Gb g && Nat.ltb (c_recv r) (List.length g) && is_errdef g (c_recv r) && is_nil (a_cycf (c_attrs r))
  && edge_rankedb g rank
  && inline_rankedb g (a_inline (c_attrs r)) rk
  && forallb (fun c => Nat.ltb c (List.length g) && Nat.leb (rk c) (List.length g)) (c_direct r).
Lemma render_guardb_sound r rank rk : render_guardb r rank rk = true -> render_guard r.
Proof.
  unfold render_guardb, render_guard. rewrite !andb_true_iff.
  intros [[[[[[H1 H2] H3] H4] H5] H7] H8].
  split; [apply Gb_sound; exact H1|]. split; [apply Nat.ltb_lt; exact H2|]. split; [exact H3|].
  split; [destruct (a_cycf (c_attrs r)); [reflexivity|discriminate]|].
  split; [exists rank; apply edge_rankedb_sound; exact H5|].
  exists rk. split; [apply inline_rankedb_sound; exact H7|].
  intros c Hc. rewrite forallb_forall in H8. specialize (H8 c Hc). apply andb_true_iff in H8 as [A B].
  split; [apply Nat.ltb_lt; exact A|apply Nat.leb_le; exact B].
Qed.
(* what one readSourceFile call may do to {sourceAvailable, sourceFileCache}; [op]: it called os.Open *)
Definition memo_step (st : sstate) (fs : fsys) (p : string) (st1 : sstate) (op : bool) : Prop :=
  (forall b, available st = Some b -> available st1 = Some b) /\
  (cache st1 = cache st \/
   exists L, fs p = Present L /\ lookup p (cache st) = None /\ cache st1 = (p, L) :: cache st) /\
  (op = false -> st1 = st).

Definition source_of (st : sstate) (fs : fsys) (p : string) (L : list string) : Prop :=
  check_available st = true /\
  (lookup p (cache st) = Some L \/ (lookup p (cache st) = None /\ fs p = Present L)).

Lemma mark_spec b st :
  (forall b', available st = Some b' -> available (mark b st) = Some b') /\ cache (mark b st) = cache st.
Proof. unfold mark. destruct (available st) eqn:E; split; auto; congruence. Qed.

Lemma read_source_spec st fs p st1 r op : read_source st fs p = (st1, r, op) ->
  memo_step st fs p st1 op /\ forall L, r = Some L -> source_of st fs p L.
Proof.
  unfold read_source, source_of. destruct (check_available st) eqn:Hav; cbn [negb].
  2:{ intros H. inversion H; subst. split; [repeat split; auto|discriminate]. }
  destruct (lookup p (cache st)) as [l|] eqn:El.
  { intros H. inversion H; subst. split; [repeat split; auto|]. intros L E. inversion E; subst. auto. }
  destruct (mark_spec true st) as [Mt Ct], (mark_spec false st) as [Mf Cf].
  destruct (fs p) as [l| | | |] eqn:Ef; intros H; inversion H; subst;
    (split; [split; [|split; [|discriminate]]; auto|try discriminate]).
  - right. exists l. cbn [cache_put cache]. rewrite Ct. auto.
  - intros L E. inversion E; subst. auto.
Qed.

Lemma get_source_lines_spec st fs p line around st1 r op :
  get_source_lines st fs p line around = (st1, r, op) ->
  memo_step st fs p st1 op /\
  ((0 <= around)%Z -> exists lines, r = Ok lines) /\
  (forall lines, r = Ok lines -> lines <> [] ->
     exists L, source_of st fs p L /\
       (1 <= line <= Z.of_nat (List.length L))%Z /\
       lines = firstn (Z.to_nat (Z.min (Z.of_nat (List.length L)) (line + around) - Z.max 0 (line - around - 1)))
                      (skipn (Z.to_nat (Z.max 0 (line - around - 1))) L) /\
       (Z.max 0 (line - around - 1) <= Z.min (Z.of_nat (List.length L)) (line + around))%Z).
Proof.
  intros H. unfold get_source_lines in H.
  destruct (read_source st fs p) as [[st1' r'] op'] eqn:E. destruct (read_source_spec _ _ _ _ _ _ E) as [Hm Hsrc].
  destruct r' as [L|].
  - destruct (Z.ltb line 1 || Z.ltb (Z.of_nat (List.length L)) line) eqn:Eb.
    + inversion H; subst. split; [exact Hm|]. split; [eauto|]. intros lines Hl Hne. inversion Hl; subst. congruence.
    + apply orb_false_iff in Eb as [E1 E2]. apply Z.ltb_ge in E1, E2.
      destruct (Z.ltb (Z.min (Z.of_nat (List.length L)) (line + around)) (Z.max 0 (line - around - 1))) eqn:Ec.
      * inversion H; subst. split; [exact Hm|]. split; [|discriminate].
        intros Ha. apply Z.ltb_lt in Ec. lia.
      * apply Z.ltb_ge in Ec. inversion H; subst. split; [exact Hm|]. split; [eauto|].
        intros lines Hl Hne. inversion Hl; subst. exists L. split; [exact (Hsrc L eq_refl)|]. repeat split; auto.
  - inversion H; subst. split; [exact Hm|]. split; [eauto|]. intros lines Hl Hne. inversion Hl; subst. congruence.
Qed.

Lemma frame_source_lines st fs p line around st1 o op : frame_source st fs p line around = (st1, o, op) ->
  exists r, get_source_lines st fs p line around = (st1, r, op) /\
            forall lines, r = Ok lines -> exists s, o = Ok s /\ (s <> "" -> lines <> []).
Proof.
  unfold frame_source. destruct (get_source_lines st fs p line around) as [[st' r] op'].
  intros H. exists r. destruct r as [[|l0 lr]| |]; inversion H; subst; (split; [reflexivity|]);
    intros lines E; inversion E; subst; eexists; (split; [reflexivity|congruence]).
Qed.

Definition step_ok (r : step_result) : Prop :=
  let c := r_call r in let st := r_pre r in let st' := r_post r in
  exists s, r_out r = Ok s /\
    (s <> "" -> check_available st = true /\
       exists L, (lookup (c_path c) (cache st) = Some L \/
                  (lookup (c_path c) (cache st) = None /\ c_fs c (c_path c) = Present L)) /\
                 (1 <= c_line c <= Z.of_nat (List.length L))%Z) /\
    (forall b, available st = Some b -> available st' = Some b) /\
    (available st = Some false -> s = "" /\ st' = st /\ r_opened r = false) /\
    (cache st' = cache st \/
     exists L, c_fs c (c_path c) = Present L /\ lookup (c_path c) (cache st) = None /\
               cache st' = (c_path c, L) :: cache st) /\
    (r_opened r = false -> st' = st).

Lemma frame_source_false st fs p line around : available st = Some false ->
  frame_source st fs p line around = (st, Ok "", false).
Proof. intros H. unfold frame_source, get_source_lines, read_source, check_available. now rewrite H. Qed.

Lemma snippet_false st fs p line around : available st = Some false ->
  snippet st fs p line around = (st, Ok "", false).
Proof.
  intros H. unfold snippet. rewrite (frame_source_false _ _ _ _ _ H).
  now destruct (Z.ltb 0 around && negb (str_eqb p "")).
Qed.

Lemma snippet_step_ok st c :
  forall st1 o op, snippet st (c_fs c) (c_path c) (c_line c) (c_around c) = (st1, o, op) ->
  step_ok {| r_pre := st; r_call := c; r_post := st1; r_out := o; r_opened := op |}.
Proof.
  intros st1 o op H. pose proof H as H0. unfold step_ok. cbn [r_pre r_call r_post r_out r_opened].
  unfold snippet in H. destruct (Z.ltb 0 (c_around c) && negb (str_eqb (c_path c) "")) eqn:Eg.
  2:{ inversion H; subst. exists "". repeat split; auto; congruence. }
  apply andb_true_iff in Eg as [Ea _]. apply Z.ltb_lt in Ea.
  destruct (frame_source_lines _ _ _ _ _ _ _ _ H) as [r [Eg Ho]].
  destruct (get_source_lines_spec _ _ _ _ _ _ _ _ Eg) as [[Hmono [Hcache Hop]] [Hok Hne]].
  destruct (Hok (Z.lt_le_incl _ _ Ea)) as [lines ->]. destruct (Ho lines eq_refl) as [s [-> Hs]].
  exists s. split; [reflexivity|]. split.
  { intros Hn. destruct (Hne lines eq_refl (Hs Hn)) as [L [[Hav HL] [Hline _]]]. eauto. }
  split; [exact Hmono|]. split; [|split; [exact Hcache|exact Hop]].
  intros Hf. rewrite (snippet_false _ _ _ _ _ Hf) in H0. repeat split; congruence.
Qed.

Lemma run_calls_inv (I : sstate -> Prop) (P : step_result -> Prop) :
  (forall st c st1 o op, I st -> snippet st (c_fs c) (c_path c) (c_line c) (c_around c) = (st1, o, op) ->
     P {| r_pre := st; r_call := c; r_post := st1; r_out := o; r_opened := op |} /\ I st1) ->
  forall cs st, I st -> Forall P (run_calls st cs).
Proof.
  intros H. induction cs as [|c r IH]; intros st Hst; cbn [run_calls]; [constructor|].
  destruct (snippet st (c_fs c) (c_path c) (c_line c) (c_around c)) as [[st1 o] op] eqn:E.
  destruct (H st c st1 o op Hst E). constructor; auto.
Qed.

Lemma run_calls_ok : forall cs st, Forall step_ok (run_calls st cs).
Proof.
  intros cs st. apply (run_calls_inv (fun _ => True)); [|exact I].
  intros st0 c st1 o op _ E. split; [exact (snippet_step_ok st0 c st1 o op E)|exact I].
Qed.

Lemma run_calls_chain : forall cs st,
  (match run_calls st cs with r :: _ => r_pre r = st | [] => True end) /\
  (forall pre r1 r2 post, run_calls st cs = pre ++ r1 :: r2 :: post -> r_pre r2 = r_post r1).
Proof.
  induction cs as [|c r IH]; intros st; cbn [run_calls]; [split; [exact I|intros [|? ?] ? ? ? H; discriminate]|].
  destruct (snippet st (c_fs c) (c_path c) (c_line c) (c_around c)) as [[st1 o] op] eqn:E.
  split; [reflexivity|]. intros pre r1 r2 post H. destruct (IH st1) as [Hhd Hch].
  destruct pre as [|x pre]; cbn in H; inversion H; subst.
  - rewrite H2 in Hhd. cbn [r_post]. exact Hhd.
  - eapply Hch. exact H2.
Qed.

(* the memo is written at most once over the whole sequence *)
Lemma run_calls_decided : forall cs st b, available st = Some b ->
  Forall (fun r => available (r_pre r) = Some b /\ available (r_post r) = Some b) (run_calls st cs).
Proof.
  intros cs st b. apply (run_calls_inv (fun s => available s = Some b)). intros st0 c st1 o op Hb E.
  destruct (snippet_step_ok st0 c st1 o op E) as [s [_ [_ [Hm _]]]]. cbn in Hm. cbn. auto.
Qed.

Lemma run_calls_false : forall cs st, available st = Some false ->
  Forall (fun r => r_out r = Ok "" /\ r_post r = st /\ r_opened r = false) (run_calls st cs).
Proof.
  intros cs st Hb. apply (run_calls_inv (eq st)); [|reflexivity].
  intros st0 c st1 o op <- E. rewrite (snippet_false _ _ _ _ _ Hb) in E. inversion E; subst. cbn. auto.
Qed.

Lemma snippet_false_any_fs st fs fs' p line around : available st = Some false ->
  snippet st fs p line around = snippet st fs' p line around.
Proof. intros H. now rewrite !(snippet_false _ _ _ _ _ H). Qed.

(* raw getSourceLines panics only for a negative [around] *)
Lemma get_source_lines_no_panic st fs p line around : (0 <= around)%Z ->
  forall st1 r op, get_source_lines st fs p line around = (st1, r, op) -> exists lines, r = Ok lines.
Proof. intros Ha st1 r op H. destruct (get_source_lines_spec _ _ _ _ _ _ _ _ H) as [_ [Hok _]]. auto. Qed.

Lemma get_source_lines_panics :
  exists w, snd (fst (get_source_lines s_init (fun _ => Present ["a"; "b"; "c"; "d"; "e"]) "f.go" 3 (-2))) = Panic w.
Proof. eexists. vm_compute. reflexivity. Qed.
Lemma number_from_window (L : list string) : forall k s lo, s + k <= List.length L ->
  number_from lo (firstn k (skipn s L)) =
  map (fun i => ((lo + Z.of_nat i)%Z, nth (s + i) L "")) (seq 0 k).
Proof.
  induction k as [|k IH]; intros s lo H; [reflexivity|].
  rewrite (skipn_nth_cons "" s L) by lia. cbn [firstn number_from seq map].
  rewrite Z.add_0_r, Nat.add_0_r. f_equal.
  rewrite IH by lia. rewrite <- seq_shift, map_map. apply map_ext. intros i.
  f_equal; [lia|f_equal; lia].
Qed.

Lemma sline_eqb_eq a b : sline_eqb a b = true <-> a = b.
Proof.
  destruct a as [[n1 m1] t1], b as [[n2 m2] t2]. unfold sline_eqb. cbn [fst snd].
  rewrite !andb_true_iff, Z.eqb_eq, Bool.eqb_true_iff, str_eqb_eq. split; [intros [[-> ->] ->]; reflexivity|].
  intros H. inversion H. auto.
Qed.

Lemma expected_window_in L line around : (1 <= line <= Z.of_nat (List.length L))%Z ->
  expected_window L line around =
  let lo := Z.max 1 (line - around) in
  map (fun i => let num := (lo + Z.of_nat i)%Z in (num, Z.eqb num line, nth (Z.to_nat (num - 1)) L ""))
      (seq 0 (Z.to_nat (Z.min (Z.of_nat (List.length L)) (line + around) - lo + 1))).
Proof. intros [H1 H2]. unfold expected_window. apply Z.leb_le in H1, H2. now rewrite H1, H2. Qed.

Lemma model_window L line around :
  (1 <= line <= Z.of_nat (List.length L))%Z ->
  let start := Z.max 0 (line - around - 1) in
  let stop := Z.min (Z.of_nat (List.length L)) (line + around) in
  (start <= stop)%Z ->
  map (fun e => (fst e, Z.eqb (fst e) line, snd e))
      (number_from (Z.max 1 (line - around)) (firstn (Z.to_nat (stop - start)) (skipn (Z.to_nat start) L)))
  = expected_window L line around.
Proof.
  intros Hl start stop Hs. rewrite (expected_window_in L line around Hl). cbv zeta. fold stop.
  assert (Hlo : Z.max 1 (line - around) = (start + 1)%Z) by (unfold start; lia).
  rewrite Hlo. rewrite number_from_window by (unfold start, stop in *; lia).
  rewrite map_map. replace (Z.to_nat (stop - (start + 1) + 1)) with (Z.to_nat (stop - start)) by lia.
  apply map_ext. intros i. cbn [fst snd]. f_equal. f_equal. unfold start. lia.
Qed.

Lemma expected_window_nonnil L line around : (1 <= line <= Z.of_nat (List.length L))%Z ->
  (Z.max 0 (line - around - 1) <= Z.min (Z.of_nat (List.length L)) (line + around))%Z ->
  is_nil (expected_window L line around) = false.
Proof.
  intros Hl Hs. rewrite (expected_window_in L line around Hl). cbv zeta.
  remember (Z.to_nat (Z.min (Z.of_nat (List.length L)) (line + around) - Z.max 1 (line - around) + 1)) as k.
  destruct k as [|k]; [|reflexivity]. exfalso. lia.
Qed.

Lemma model_parsed_false st fs p line around : available st = Some false -> model_parsed st fs p line around = [].
Proof. intros H. unfold model_parsed, get_source_lines, read_source, check_available. now rewrite H. Qed.

Lemma model_parsed_frames_false st fs around depth : available st = Some false ->
  forall frames i, forallb is_nil (model_parsed_frames st fs around depth i frames) = true.
Proof.
  intros H. induction frames as [|[file line] r IH]; intros i; cbn [model_parsed_frames]; [reflexivity|].
  destruct (want_source around depth i file); [|apply IH].
  rewrite (frame_source_false _ _ _ _ _ H), (model_parsed_false _ _ _ _ _ H). apply IH.
Qed.

(* what a sequence of renders maintains: a cached file was present under one of the file systems seen so far,
   and the decision [a0] taken before stands *)
Definition memo_inv (hist : list (list (string * fres))) (a0 : option bool) (st : sstate) : Prop :=
  (forall p L, lookup p (cache st) = Some L -> exists files, In files hist /\ fs_of files p = Present L) /\
  forall b, a0 = Some b -> available st = Some b.

Lemma memo_inv_step hist files a0 st p st1 op :
  memo_step st (fs_of files) p st1 op -> memo_inv (files :: hist) a0 st -> memo_inv (files :: hist) a0 st1.
Proof.
  intros [Hmono [Hcache _]] [Hcs Ha]. split; [|auto].
  intros q L Hq. destruct Hcache as [Hc|[L' [Hf [Hl Hc]]]]; rewrite Hc in Hq; [apply Hcs; exact Hq|].
  cbn [lookup] in Hq. destruct (str_eqb q p) eqn:Eq; [|apply Hcs; exact Hq].
  apply str_eqb_eq in Eq. subst q. inversion Hq; subst. exists files. split; [left; reflexivity|exact Hf].
Qed.

Lemma frame_ok hist files a0 st p line around st1 o op :
  memo_inv (files :: hist) a0 st -> frame_source st (fs_of files) p line around = (st1, o, op) ->
  memo_inv (files :: hist) a0 st1 /\
  snippet_ok (files :: hist) around (p, line) (model_parsed st (fs_of files) p line around) = true.
Proof.
  intros Hinv H. destruct (frame_source_lines _ _ _ _ _ _ _ _ H) as [r [Eg _]].
  destruct (get_source_lines_spec _ _ _ _ _ _ _ _ Eg) as [Hm [_ Hne]].
  split; [exact (memo_inv_step _ _ _ _ _ _ _ Hm Hinv)|].
  unfold model_parsed. rewrite Eg. unfold snippet_ok. cbn [fst snd].
  destruct r as [[|l0 lr]| |]; try reflexivity.
  destruct (Hne (l0 :: lr) eq_refl ltac:(congruence)) as [L [[_ Hsrc] [Hline [Hlines Hss]]]].
  apply orb_true_iff. right.
  assert (Hex : exists fl, In fl (files :: hist) /\ fs_of fl p = Present L).
  { destruct Hsrc as [Hc|[_ Hf]]; [exact (proj1 Hinv p L Hc)|]. exists files. split; [left; reflexivity|exact Hf]. }
  destruct Hex as [fl [Hin Hfl]]. apply existsb_exists. exists fl. split; [exact Hin|]. rewrite Hfl.
  rewrite Hlines. rewrite (model_window L line around Hline Hss).
  rewrite (expected_window_nonnil L line around Hline Hss). cbn [negb andb].
  apply list_eqb_refl. exact sline_eqb_eq.
Qed.

Lemma frames_ok hist files a0 around depth : forall frames st i,
  memo_inv (files :: hist) a0 st ->
  forall st2 outs, frames_and_source st (fs_of files) around depth i frames = (st2, outs) ->
  memo_inv (files :: hist) a0 st2 /\
  forallb2 (snippet_ok (files :: hist) around) frames
           (model_parsed_frames st (fs_of files) around depth i frames) = true.
Proof.
  induction frames as [|[file line] r IH]; intros st i Hinv st2 outs H; cbn [frames_and_source model_parsed_frames] in *.
  - inversion H; subst. auto.
  - destruct (want_source around depth i file).
    + destruct (frame_source st (fs_of files) file line around) as [[st1 s] op] eqn:Ef.
      destruct (frames_and_source st1 (fs_of files) around depth (S i) r) as [st3 rest] eqn:Er.
      inversion H; subst.
      destruct (frame_ok hist files a0 st file line around _ _ _ Hinv Ef) as [Hinv1 Hs1].
      destruct (IH st1 (S i) Hinv1 _ _ Er) as [Hinv2 Hs2].
      split; [exact Hinv2|]. cbn [forallb2]. rewrite Hs1, Hs2. reflexivity.
    + destruct (frames_and_source st (fs_of files) around depth (S i) r) as [st3 rest] eqn:Er.
      inversion H; subst. exact (IH st (S i) Hinv _ _ Er).
Qed.

Lemma corr_steps_ok : forall steps hist st,
  memo_inv hist (available st) st -> corr_steps st steps = true -> ok_steps hist (available st) steps = true.
Proof.
  induction steps as [|s r IH]; intros hist st [Hcs _] H; [reflexivity|].
  cbn [corr_steps ok_steps] in *.
  destruct (frames_and_source st (fs_of (s_files s)) (s_around s) (s_depth s) 0 (s_frames s)) as [st1 outs] eqn:Ef.
  rewrite !andb_true_iff in H. destruct H as [[[[[Hp _] Hparsed] Havail] _] Hr].
  apply (list_eqb_eq _ (list_eqb_eq _ sline_eqb_eq)) in Hparsed. apply (option_eqb_eq _ Bool.eqb_true_iff) in Havail.
  assert (I0 : memo_inv (s_files s :: hist) (available st) st).
  { split; [|auto]. intros q L Hq. destruct (Hcs q L Hq) as [fl [Hin Hf]]. exists fl. split; [right; exact Hin|exact Hf]. }
  destruct (frames_ok hist (s_files s) _ (s_around s) (s_depth s) (s_frames s) st 0 I0 _ _ Ef) as [[Hcs1 Hm] Hs].
  rewrite <- Hparsed, <- Havail, Hp, Hs, (IH _ _ (conj Hcs1 (fun b E => E)) Hr), andb_true_r. unfold avail_mono.
  destruct (available st) as [[|]|] eqn:Eb; try rewrite (Hm _ eq_refl); cbn [option_eqb Bool.eqb andb];
    [reflexivity|now apply model_parsed_frames_false|reflexivity].
Qed.

Lemma corr_implies_ok c :
  match c with
  | CR r => c_restored r = false -> model_native r <> MDiverge
  | CS _ => True
  end -> corr c = true -> ok c = true.
Proof.
  destruct c as [r|steps]; cbn [corr ok]; intros Hg H.
  - unfold corr_render in H. destruct (c_restored r).
    + destruct (model_restored r) as [m|] eqn:E; [|discriminate].
      unfold model_restored in E. destruct (marshal_g _ _ _ _); try discriminate. inversion E; subst.
      eapply agrees_ok; [| |exact H]; congruence.
    + eapply agrees_ok; [apply Hg; reflexivity|apply model_native_fail|exact H].
  - apply (corr_steps_ok steps [] s_init); [|exact H]. split; [discriminate|auto].
Qed.
