(* C06 proofs, in two steps:
     map model (Model/Tree.v)  --refines-->  (key path, marker) model  --satisfies-->  Unf (Spec/Unfold.v) *)
From Errdef Require Import Base.Str Base.ListFacts Model.Tree Spec.Unfold Check.C06.

Lemma shape_ind' (P : shape -> Prop) :
  (forall n kids, Forall P kids -> P (SNode n kids)) -> forall s, P s.
Proof.
  intros H. fix IH 1. intros [n kids]. apply H.
  induction kids as [|k r IHr]; constructor; [apply IH|exact IHr].
Qed.

Lemma tree_ind' (P : tree -> Prop) :
  (forall n c kids, Forall P kids -> P (Node n c kids)) -> forall t, P t.
Proof.
  intros H. fix IH 1. intros [n c kids]. apply H.
  induction kids as [|k r IHr]; constructor; [apply IH|exact IHr].
Qed.

Lemma vget_vdel k k' m : vget k (vdel k' m) = if N.eqb k k' then None else vget k m.
Proof.
  induction m as [|[a v] r IH]; simpl.
  - now destruct (N.eqb k k').
  - destruct (N.eqb k' a) eqn:E1.
    + apply N.eqb_eq in E1. subst a. rewrite IH. destruct (N.eqb k k'); reflexivity.
    + simpl. destruct (N.eqb k a) eqn:E2.
      * apply N.eqb_eq in E2. subst a. rewrite N.eqb_sym, E1. reflexivity.
      * exact IH.
Qed.

Lemma vget_vset k k' v m : vget k (vset k' v m) = if N.eqb k k' then Some v else vget k m.
Proof.
  unfold vset. simpl. destruct (N.eqb k k') eqn:E; [reflexivity|].
  rewrite vget_vdel, E. reflexivity.
Qed.

Lemma vmem_vset k k' v m : vmem k (vset k' v m) = N.eqb k k' || vmem k m.
Proof. unfold vmem. rewrite vget_vset. now destruct (N.eqb k k'). Qed.

Lemma vmem_vdel k k' m : vmem k (vdel k' m) = negb (N.eqb k k') && vmem k m.
Proof. unfold vmem. rewrite vget_vdel. now destruct (N.eqb k k'). Qed.

Definition memN (k : N) (l : list N) : bool := existsb (N.eqb k) l.
Definition mk_is (mk : option N) (k : N) : bool :=
  match mk with Some m => N.eqb m k | None => false end.
Definition pres (A : Type) := option (A * option N).

Fixpoint build_list_p (bn : nat -> option N -> pres (option tree)) (cs : list (option nat)) (mk : option N)
  : pres (list tree) :=
  match cs with
  | [] => Some ([], mk)
  | None :: r => build_list_p bn r mk
  | Some c :: r =>
      match bn c mk with
      | None => None
      | Some (ot, mk1) =>
          match build_list_p bn r mk1 with
          | None => None
          | Some (ts, mk2) => Some (match ot with Some t => t :: ts | None => ts end, mk2)
          end
      end
  end.

Fixpoint build_node_p (fuel : nat) (g : graph) (path : list N) (n : nat) (mk : option N) : pres (option tree) :=
  match fuel with
  | O => None
  | S f =>
      match nth_error g n with
      | None => None
      | Some nd =>
          match g_key nd with
          | Some k =>
              if memN k path then Some (None, Some k)
              else match build_list_p (build_node_p f g (k :: path)) (causes_of nd) mk with
                   | None => None
                   | Some (kids, mk') =>
                       if mk_is mk' k then Some (Some (Node n true kids), None)
                       else Some (Some (Node n false kids), mk')
                   end
          | None =>
              match build_list_p (build_node_p f g path) (causes_of nd) mk with
              | None => None
              | Some (kids, mk') => Some (Some (Node n false kids), mk')
              end
          end
      end
  end.

Lemma memN_In k l : memN k l = true <-> In k l.
Proof. apply existsb_eqb_In, N.eqb_eq. Qed.

Lemma memn_In n l : memn n l = true <-> In n l.
Proof. apply existsb_eqb_In, Nat.eqb_eq. Qed.

(* the map represents (path, marker): slot [marker_key] holds the marker, every other
   key is present exactly when it is on the path *)
Definition abs (vm : vmap) (path : list N) (mk : option N) : Prop :=
  vget marker_key vm = mk /\
  forall k, k <> marker_key -> (vmem k vm = true <-> In k path).

Definition rel {A} (path : list N) (r1 : bres A) (r2 : pres A) : Prop :=
  match r1, r2 with
  | Some (a, vm'), Some (a', mk') => a = a' /\ abs vm' path mk'
  | None, None => True
  | _, _ => False
  end.

Lemma rel_inv {A} path (r1 : bres A) r2 : rel path r1 r2 ->
  (r1 = None /\ r2 = None) \/ exists a vm mk, r1 = Some (a, vm) /\ r2 = Some (a, mk) /\ abs vm path mk.
Proof.
  destruct r1 as [[a vm]|], r2 as [[a' mk]|]; simpl; intros H; try contradiction; [|auto].
  destruct H as [<- Ha]. right. exists a, vm, mk. auto.
Qed.

Lemma abs_empty : abs [] [] None.
Proof. split; [reflexivity|]. intros k _. split; [discriminate|contradiction]. Qed.

Lemma abs_vmem vm p mk k : abs vm p mk -> k <> marker_key -> vmem k vm = memN k p.
Proof. intros [_ Hp] Hk. apply eq_true_iff_eq. rewrite memN_In. apply Hp, Hk. Qed.

(* visited[marker] = k *)
Lemma abs_cut vm p mk k : abs vm p mk -> abs (vset marker_key k vm) p (Some k).
Proof.
  intros [_ Hp]. split; [rewrite vget_vset, N.eqb_refl; reflexivity|].
  intros k' Hk'. rewrite vmem_vset, (proj2 (N.eqb_neq _ _) Hk'). apply Hp, Hk'.
Qed.

(* delete(visited, marker) *)
Lemma abs_unmark vm p mk : abs vm p mk -> abs (vdel marker_key vm) p None.
Proof.
  intros [_ Hp]. split; [rewrite vget_vdel, N.eqb_refl; reflexivity|].
  intros k' Hk'. rewrite vmem_vdel, (proj2 (N.eqb_neq _ _) Hk'). apply Hp, Hk'.
Qed.

(* visited[k] = k *)
Lemma abs_enter vm p mk k : abs vm p mk -> k <> marker_key -> abs (vset k k vm) (k :: p) mk.
Proof.
  intros [Hm Hp] Hk. split; [rewrite vget_vset, (proj2 (N.eqb_neq _ _) (not_eq_sym Hk)); exact Hm|].
  intros k' Hk'. rewrite vmem_vset, orb_true_iff, N.eqb_eq, (Hp k' Hk'). simpl. split; intros [E|E]; auto.
Qed.

(* delete(visited, k) *)
Lemma abs_leave vm p mk k : abs vm (k :: p) mk -> ~ In k p -> k <> marker_key -> abs (vdel k vm) p mk.
Proof.
  intros [Hm Hp] Hnin Hk. split; [rewrite vget_vdel, (proj2 (N.eqb_neq _ _) (not_eq_sym Hk)); exact Hm|].
  intros k' Hk'. rewrite vmem_vdel, andb_true_iff, negb_true_iff, N.eqb_neq, (Hp k' Hk'). simpl.
  split; [intros [E [C|C]]; [congruence|exact C]|]. intros H. split; [intros ->; contradiction|right; exact H].
Qed.

Lemma on_exit_eq k vm : on_exit k vm =
  let c := mk_is (vget marker_key vm) k in (c, vdel k (if c then vdel marker_key vm else vm)).
Proof. unfold on_exit, mk_is. destruct (vget marker_key vm) as [c|]; [destruct (N.eqb c k)|]; reflexivity. Qed.

Lemma abs_exit vm p mk k : abs vm (k :: p) mk -> ~ In k p -> k <> marker_key ->
  exists vm', on_exit k vm = (mk_is mk k, vm') /\ abs vm' p (if mk_is mk k then None else mk).
Proof.
  intros Ha Hnin Hk. rewrite on_exit_eq, (proj1 Ha). eexists. split; [reflexivity|].
  destruct (mk_is mk k); apply abs_leave; try assumption. eapply abs_unmark, Ha.
Qed.

Lemma refine_list bn bnp path :
  (forall c vm mk, abs vm path mk -> rel path (bn c vm) (bnp c mk)) ->
  forall cs vm mk, abs vm path mk -> rel path (build_list bn cs vm) (build_list_p bnp cs mk).
Proof.
  intros H cs. induction cs as [|[c|] r IH]; intros vm mk Ha; simpl.
  - split; [reflexivity|exact Ha].
  - destruct (rel_inv _ _ _ (H c vm mk Ha)) as [[-> ->]|[ot [vm1 [mk1 [-> [-> Ha1]]]]]]; [exact I|].
    destruct (rel_inv _ _ _ (IH vm1 mk1 Ha1)) as [[-> ->]|[ts [vm2 [mk2 [-> [-> Ha2]]]]]]; [exact I|].
    split; [reflexivity|exact Ha2].
  - apply IH, Ha.
Qed.

Lemma refine_node g : keys_not_marker g ->
  forall fuel path n vm mk, abs vm path mk ->
    rel path (build_node fuel g n vm) (build_node_p fuel g path n mk).
Proof.
  intros Hnz fuel. induction fuel as [|f IH]; intros path n vm mk Ha; simpl; [exact I|].
  destruct (nth_error g n) as [nd|] eqn:Hnd; [|exact I].
  destruct (g_key nd) as [k|] eqn:Hk.
  - assert (Hkm : k <> marker_key) by (eapply Hnz; eauto).
    rewrite (abs_vmem _ _ _ _ Ha Hkm). destruct (memN k path) eqn:Hin.
    + split; [reflexivity|apply abs_cut with mk, Ha].
    + destruct (rel_inv _ _ _ (refine_list _ _ _ (IH (k :: path)) (causes_of nd) _ _ (abs_enter _ _ _ _ Ha Hkm)))
        as [[-> ->]|[kids [vm2 [mkc [-> [-> Ha2]]]]]]; [exact I|].
      destruct (abs_exit _ _ _ _ Ha2) as [vm3 [-> Ha3]]; [rewrite <- memN_In; congruence|exact Hkm|].
      destruct (mk_is mkc k); (split; [reflexivity|exact Ha3]).
  - destruct (rel_inv _ _ _ (refine_list _ _ _ (IH path) (causes_of nd) _ _ Ha))
      as [[-> ->]|[kids [vm2 [mkc [-> [-> Ha2]]]]]]; [exact I|].
    split; [reflexivity|exact Ha2].
Qed.

Lemma refine_nodes g fuel cs : keys_not_marker g ->
  rel [] (build_nodes fuel g cs []) (build_list_p (build_node_p fuel g []) cs None).
Proof. intros Hnz. apply refine_list; [intros c vm mk; apply refine_node, Hnz|exact abs_empty]. Qed.

(* buildNode's path is a path of keys, Unf's a path of node indices: related through [keys_injective] *)
Definition key_of (g : graph) (n : nat) (k : N) : Prop :=
  exists nd, nth_error g n = Some nd /\ g_key nd = Some k.

Definition path_rel (g : graph) (kpath : list N) (ipath : list nat) : Prop :=
  Forall2 (fun k i => key_of g i k) kpath ipath.

Lemma path_rel_in g kpath ipath : keys_injective g -> path_rel g kpath ipath ->
  forall n k, key_of g n k -> (In k kpath <-> In n ipath).
Proof.
  intros Hinj HR. induction HR as [|k0 i0 kp ip [nd0 [H0 K0]] HR IH]; intros n k [nd [Hn Kn]]; simpl; [tauto|].
  assert (IH' := IH n k (ex_intro _ nd (conj Hn Kn))).
  split; intros [E|E].
  - subst k0. left. eapply Hinj; eauto.
  - right. now apply IH'.
  - subst i0. left. congruence.
  - right. now apply IH'.
Qed.

Lemma path_ext_nd g path n nd : nth_error g n = Some nd ->
  path_ext g path n = match g_key nd with Some _ => n :: path | None => path end.
Proof. intros H. unfold path_ext. rewrite H. reflexivity. Qed.

(* a marker that is set names a key on the path: the node that will consume it has not been left yet *)
Definition marker_ok (path : list N) (mk : option N) : Prop :=
  match mk with None => True | Some k => In k path end.

(* what a run below the key path [path] does to the marker, given the flag it computed and the
   occurrences [ds] it dropped: a run that drops nothing leaves the marker alone and flags nothing;
   a drop shows in the flag or in the marker; a marker that was set is the key of a dropped node (this last
   clause is what [post_exit] needs to find the flagged node among the dropped ones) *)
Definition post (g : graph) (path : list N) (mk mk' : option N) (flag : bool) (ds : list nat) : Prop :=
  marker_ok path mk' /\
  (ds = [] -> mk' = mk /\ flag = false) /\
  (ds <> [] -> flag = true \/ mk' <> None) /\
  (mk' = mk \/ mk' = None \/ exists m k, mk' = Some k /\ In m ds /\ key_of g m k).

Lemma post_nil g p mk : marker_ok p mk -> post g p mk mk false [].
Proof. intros H. split; [exact H|]. split; [auto|]. split; [intros C; now contradiction C|auto]. Qed.

Lemma post_app g p mk mk1 mk2 f1 f2 d1 d2 :
  post g p mk mk1 f1 d1 -> post g p mk1 mk2 f2 d2 -> post g p mk mk2 (f1 || f2) (d1 ++ d2).
Proof.
  intros [_ [Hz1 [Hn1 Hs1]]] [Hok2 [Hz2 [Hn2 Hs2]]]. split; [exact Hok2|]. split; [|split].
  - intros E. apply app_eq_nil in E as [E1 E2]. destruct (Hz1 E1) as [-> ->], (Hz2 E2) as [-> ->]. auto.
  - intros Hne. destruct d2 as [|x d2'].
    + destruct (Hz2 eq_refl) as [-> ->]. rewrite app_nil_r in Hne. rewrite orb_false_r. exact (Hn1 Hne).
    + destruct (Hn2 ltac:(discriminate)) as [->|M]; [left; apply orb_true_r|right; exact M].
  - destruct Hs2 as [->|[E|[m [k [E [Hin Hk]]]]]]; [|auto|right; right; exists m, k; rewrite in_app_iff; auto].
    destruct Hs1 as [E|[E|[m [k [E [Hin Hk]]]]]]; [auto|auto|]. right; right. exists m, k. rewrite in_app_iff. auto.
Qed.

Lemma post_cut g p mk n k : In k p -> key_of g n k -> post g p mk (Some k) false [n].
Proof.
  intros Hin Hk. split; [exact Hin|]. split; [discriminate|]. split; [intros _; right; discriminate|].
  right; right. exists n, k. simpl. auto.
Qed.

(* leaving the node n with key k: a marker equal to k is consumed and becomes the flag of n *)
Lemma post_exit g p k n mk mkc f ds : keys_injective g -> key_of g n k -> ~ In k p -> marker_ok p mk ->
  post g (k :: p) mk mkc f ds ->
  if mk_is mkc k then In n ds /\ post g p mk None true ds else post g p mk mkc f ds.
Proof.
  intros Hinj [nd [Hnd Hk]] Hnin Hok [Hokc [Hz [Hn Hs]]]. destruct (mk_is mkc k) eqn:Hm.
  - destruct mkc as [k'|]; [|discriminate]. apply N.eqb_eq in Hm. subst k'. assert (Hin : In n ds).
    { destruct Hs as [E|[E|[m [k' [E [Hin [md [Hmd Kmd]]]]]]]]; [subst mk; contradiction|discriminate|].
      inversion E; subst k'. now rewrite (Hinj n m nd md k Hnd Hmd Hk Kmd). }
    split; [exact Hin|]. split; [exact I|]. split; [intros ->; contradiction|auto].
  - split; [|auto]. destruct mkc as [m|]; [|exact I]. destruct Hokc as [<-|H]; [|exact H].
    simpl in Hm. rewrite N.eqb_refl in Hm. discriminate.
Qed.

Lemma post_top g mk' f ds : post g [] None mk' f ds -> (f = true <-> ds <> []).
Proof.
  intros [Hok [Hz [Hn _]]]. destruct mk' as [m|]; [destruct Hok|]. split.
  - intros -> E. now destruct (Hz E).
  - intros Hne. destruct (Hn Hne) as [F|M]; [exact F|congruence].
Qed.

(* what buildNode establishes, stated for any [bn] so that buildNodes can be handled before the recursion is tied *)
Definition node_spec (bn : nat -> option N -> pres (option tree)) (g : graph)
  (kpath : list N) (ipath : list nat) : Prop :=
  forall n mk ot mk',
    bn n mk = Some (ot, mk') -> marker_ok kpath mk ->
    exists ds, Unf g ipath n (option_map erase ot) ds /\ post g kpath mk mk' (match ot with Some t => has_cycle_node t | None => false end) ds /\
               match ot with Some t => FlagsSound g ipath t | None => True end.

Lemma build_list_p_spec bn g kpath ipath :
  node_spec bn g kpath ipath ->
  forall cs mk ts mk',
    build_list_p bn cs mk = Some (ts, mk') -> marker_ok kpath mk ->
    exists ds, UnfL g ipath cs (map erase ts) ds /\ post g kpath mk mk' (has_cycle ts) ds /\
               Forall (FlagsSound g ipath) ts.
Proof.
  intros Hbn cs. induction cs as [|[c|] r IH]; intros mk ts mk' H Hok; simpl in H.
  - inversion H; subst. exists []. split; [constructor|]. split; [apply post_nil, Hok|constructor].
  - destruct (bn c mk) as [[ot mk1]|] eqn:Hc; [|discriminate].
    destruct (build_list_p bn r mk1) as [[ts2 mk2]|] eqn:Hr; [|discriminate]. inversion H; subst; clear H.
    destruct (Hbn _ _ _ _ Hc Hok) as [d1 [HU1 [P1 HF1]]].
    destruct (IH _ _ _ Hr (proj1 P1)) as [d2 [HU2 [P2 HF2]]].
    exists (d1 ++ d2). pose proof (post_app _ _ _ _ _ _ _ _ _ P1 P2) as P.
    pose proof (UnfL_cons _ _ _ _ _ _ _ _ HU1 HU2) as HU.
    destruct ot as [t|]; (split; [exact HU|]; split; [exact P|]); [constructor; assumption|exact HF2].
  - destruct (IH _ _ _ H Hok) as [ds [HU Hp]]. exists ds. split; [now constructor|exact Hp].
Qed.

Lemma build_node_p_spec g : keys_injective g ->
  forall fuel kpath ipath, path_rel g kpath ipath -> node_spec (build_node_p fuel g kpath) g kpath ipath.
Proof.
  intros Hinj fuel. induction fuel as [|f IH]; intros kpath ipath HR n mk ot mk' H Hok; simpl in H; [discriminate|].
  destruct (nth_error g n) as [nd|] eqn:Hnd; [|discriminate].
  destruct (g_key nd) as [k|] eqn:Hk.
  - assert (Hkey : key_of g n k) by (exists nd; auto).
    assert (Hnn : g_key nd <> None) by congruence.
    pose proof (path_rel_in g kpath ipath Hinj HR n k Hkey) as Hio.
    destruct (memN k kpath) eqn:Hmem.
    + inversion H; subst; clear H. apply memN_In in Hmem.
      exists [n]. split; [eapply Unf_cut; eauto; now apply Hio|]. split; [apply post_cut; assumption|exact I].
    + assert (Hnin : ~ In k kpath) by (rewrite <- memN_In; congruence).
      destruct (build_list_p (build_node_p f g (k :: kpath)) (causes_of nd) mk) as [[kids mkc]|] eqn:Hf; [|discriminate].
      destruct (build_list_p_spec _ g (k :: kpath) (n :: ipath) (IH (k :: kpath) (n :: ipath) (Forall2_cons k n Hkey HR)) _ _ _ _ Hf)
        as [ds [HU [P HF]]]; [destruct mk; simpl; auto|].
      assert (HUn : Unf g ipath n (Some (SNode n (map erase kids))) ds)
        by (eapply Unf_tracked; eauto; now rewrite <- Hio).
      assert (HFk : Forall (FlagsSound g (path_ext g ipath n)) kids) by (now rewrite (path_ext_nd _ _ _ _ Hnd), Hk).
      pose proof (post_exit g kpath k n mk mkc _ ds Hinj Hkey Hnin Hok P) as Px.
      destruct (mk_is mkc k); inversion H; subst; clear H; exists ds; (split; [exact HUn|]).
      * destruct Px as [Hin Px]. split; [exact Px|]. constructor; [eauto|exact HFk].
      * split; [exact Px|]. constructor; [discriminate|exact HFk].
  - destruct (build_list_p (build_node_p f g kpath) (causes_of nd) mk) as [[kids mkc]|] eqn:Hf; [|discriminate].
    inversion H; subst; clear H.
    destruct (build_list_p_spec _ g kpath ipath (IH _ _ HR) _ _ _ _ Hf Hok) as [ds [HU [P HF]]].
    exists ds. split; [eapply Unf_untracked; eauto|]. split; [exact P|].
    constructor; [discriminate|]. now rewrite (path_ext_nd _ _ _ _ Hnd), Hk.
Qed.

Definition freeb (kpath : list N) (nd : gnode) : bool :=
  match g_key nd with Some k => negb (memN k kpath) | None => false end.
Definition free (g : graph) (kpath : list N) : nat := List.length (filter (freeb kpath) g).
Definition rank (g : graph) (n : nat) : nat :=
  match nth_error g n with
  | Some nd => match g_key nd with Some _ => 0 | None => S n end
  | None => 0
  end.
(* the lexicographic measure (free, rank) as one number *)
Definition measure (g : graph) (kpath : list N) (n : nat) : nat :=
  free g kpath * S (List.length g) + rank g n.

Lemma free_cons_lt g kpath n nd k :
  nth_error g n = Some nd -> g_key nd = Some k -> memN k kpath = false ->
  free g (k :: kpath) < free g kpath.
Proof.
  intros Hn Hk Hm. assert (Himp : forall x, freeb (k :: kpath) x = true -> freeb kpath x = true).
  { intros x. unfold freeb. destruct (g_key x) as [k'|]; [|discriminate]. simpl.
    destruct (N.eqb k' k); simpl; [discriminate|auto]. }
  destruct (nth_error_split g n Hn) as [l1 [l2 [-> _]]]. unfold free. rewrite !filter_app, !app_length. cbn [filter].
  replace (freeb (k :: kpath) nd) with false by (unfold freeb; rewrite Hk; simpl; now rewrite N.eqb_refl).
  replace (freeb kpath nd) with true by (unfold freeb; now rewrite Hk, Hm).
  pose proof (filter_len_le _ _ l1 Himp). pose proof (filter_len_le _ _ l2 Himp). simpl. lia.
Qed.

Lemma rank_le g c : rank g c <= List.length g.
Proof.
  pose proof (proj1 (nth_error_Some g c)) as H. unfold rank.
  destruct (nth_error g c) as [nd|]; [|lia]. destruct (g_key nd); [lia|]. apply H. discriminate.
Qed.

Lemma free_le g kpath : free g kpath <= List.length g.
Proof.
  unfold free. induction g as [|x r IH]; simpl; [lia|]. destruct (freeb kpath x); simpl; lia.
Qed.

(* a call of buildNode on a cause of n: either n is a tracked node that has just entered the path,
   or n is untracked and the cause is tracked or has a smaller index *)
Lemma measure_child g kpath n nd c : untracked_ranked g -> nth_error g n = Some nd ->
  In (Some c) (causes_of nd) -> (forall k, g_key nd = Some k -> memN k kpath = false) ->
  measure g (match g_key nd with Some k => k :: kpath | None => kpath end) c < measure g kpath n.
Proof.
  intros Hrk Hnd Hin Hfree. unfold measure.
  destruct (g_key nd) as [k|] eqn:Hk.
  - pose proof (Nat.mul_le_mono_r _ _ (S (List.length g)) (free_cons_lt g kpath n nd k Hnd Hk (Hfree k eq_refl))).
    pose proof (rank_le g c). simpl in *. lia.
  - apply Nat.add_lt_mono_l. unfold rank at 2. rewrite Hnd, Hk. unfold rank.
    destruct (nth_error g c) as [cd|] eqn:Hcd; [|lia]. destruct (g_key cd) eqn:Kc; [lia|].
    apply le_n_S. eapply Hrk; eauto.
Qed.

Lemma build_list_p_total bn cs mk :
  (forall c mk, In (Some c) cs -> bn c mk <> None) -> build_list_p bn cs mk <> None.
Proof.
  revert mk. induction cs as [|[c|] r IH]; intros mk H; simpl; [discriminate| |].
  - destruct (bn c mk) as [[ot mk1]|] eqn:E; [|exfalso; eapply H; [left; reflexivity|exact E]].
    specialize (IH mk1 (fun c mk Hin => H c mk (or_intror Hin))).
    destruct (build_list_p bn r mk1) as [[ts mk2]|]; [discriminate|contradiction].
  - apply IH. intros c mk' Hin. apply H. right. exact Hin.
Qed.

Lemma build_node_p_total g : closed g -> untracked_ranked g ->
  forall fuel kpath n mk, n < List.length g -> measure g kpath n < fuel ->
    build_node_p fuel g kpath n mk <> None.
Proof.
  intros Hcl Hrk fuel. induction fuel as [|f IH]; intros kpath n mk Hn Hm; [lia|]. simpl.
  destruct (nth_error g n) as [nd|] eqn:Hnd; [|apply nth_error_None in Hnd; lia].
  assert (HL : (forall k, g_key nd = Some k -> memN k kpath = false) ->
               build_list_p (build_node_p f g (match g_key nd with Some k => k :: kpath | None => kpath end))
                 (causes_of nd) mk <> None).
  { intros Hfree. apply build_list_p_total. intros c mk' Hin. apply IH; [eapply Hcl; eauto|].
    pose proof (measure_child g kpath n nd c Hrk Hnd Hin Hfree). lia. }
  destruct (g_key nd) as [k|].
  - destruct (memN k kpath) eqn:Hmem; [discriminate|].
    destruct (build_list_p _ _ mk) as [[kids mkc]|]; [|exfalso; apply HL; congruence].
    destruct (mk_is mkc k); discriminate.
  - destruct (build_list_p _ _ mk) as [[kids mkc]|]; [discriminate|exfalso; apply HL; congruence].
Qed.

(* free and rank are both at most |g|: hence fuel_bound = (|g|+1)^2 *)
Lemma measure_lt_bound g kpath n : measure g kpath n < fuel_bound g.
Proof.
  unfold measure, fuel_bound. pose proof (free_le g kpath). pose proof (rank_le g n). nia.
Qed.

(* two lookups of the same index give the same node: identify them with the one named [Hn] *)
Ltac same_node Hn :=
  repeat match goal with
  | Hx : nth_error _ _ = Some _ |- _ =>
      lazymatch Hx with Hn => fail | _ => rewrite Hn in Hx; inversion Hx; subst; clear Hx end
  end.

Lemma Unf_functional g :
  (forall path n os ds, Unf g path n os ds -> forall os' ds', Unf g path n os' ds' -> os = os' /\ ds = ds') /\
  (forall path cs ss ds, UnfL g path cs ss ds -> forall ss' ds', UnfL g path cs ss' ds' -> ss = ss' /\ ds = ds').
Proof.
  apply Unf_mutind.
  - intros path n nd Hn Hk Hin os' ds' H. inversion H; subst; same_node Hn;
      try (split; reflexivity); contradiction.
  - intros path n nd kids ds Hn Hk Hnin HL IH os' ds' H. inversion H; subst; same_node Hn; try contradiction.
    match goal with Hx : UnfL _ _ _ _ _ |- _ => destruct (IH _ _ Hx) as [-> ->] end. split; reflexivity.
  - intros path n nd kids ds Hn Hk HL IH os' ds' H. inversion H; subst; same_node Hn; try contradiction.
    match goal with Hx : UnfL _ _ _ _ _ |- _ => destruct (IH _ _ Hx) as [-> ->] end. split; reflexivity.
  - intros path ss' ds' H. inversion H; subst. split; reflexivity.
  - intros path r ss ds HL IH ss' ds' H. inversion H; subst. apply IH. assumption.
  - intros path c r os ss d1 d2 HU IH1 HL IH2 ss' ds' H. inversion H; subst.
    match goal with Hx : Unf _ _ _ _ _ |- _ => destruct (IH1 _ _ Hx) as [-> ->] end.
    match goal with Hx : UnfL _ _ _ _ _ |- _ => destruct (IH2 _ _ Hx) as [-> ->] end.
    split; reflexivity.
Qed.

Lemma droppedb_nd g path n nd : nth_error g n = Some nd ->
  droppedb g path n = match g_key nd with Some _ => memn n path | None => false end.
Proof. intros H. unfold droppedb, is_tracked. rewrite H. now destruct (g_key nd). Qed.

Lemma droppedb_cut g path c : droppedb g path c = true -> Unf g path c None [c].
Proof.
  unfold droppedb, is_tracked. destruct (nth_error g c) as [nd|] eqn:Hn; [|discriminate].
  destruct (g_key nd) eqn:Hk; [|discriminate]. intros H. apply memn_In in H. eapply Unf_cut; eauto. congruence.
Qed.

Lemma chk_unfold g path n m kids :
  chk g path n (SNode m kids) =
  if negb (Nat.eqb n m) then None else
  match nth_error g n with
  | None => None
  | Some nd =>
      if droppedb g path n then None
      else chk_list g (match g_key nd with Some _ => n :: path | None => path end) (causes_of nd) kids
  end.
Proof.
  simpl. destruct (negb (Nat.eqb n m)); [reflexivity|].
  destruct (nth_error g n) as [nd|]; [|reflexivity].
  destruct (droppedb g path n); [reflexivity|].
  generalize (causes_of nd). generalize (match g_key nd with Some _ => n :: path | None => path end).
  intros p. induction kids as [|t kr IH]; intros cs; simpl.
  - reflexivity.
  - destruct (skip g p cs) as [d0 rest]. destruct rest as [|[c|] r]; try reflexivity.
    destruct (chk g p c t); [|reflexivity]. rewrite IH. reflexivity.
Qed.

Lemma chk_list_nil g p kids : chk_list g p [] kids = match kids with [] => Some [] | _ => None end.
Proof. destruct kids; reflexivity. Qed.

Lemma chk_list_skip g p r kids : chk_list g p (None :: r) kids = chk_list g p r kids.
Proof. destruct kids; reflexivity. Qed.

Lemma chk_list_cons g p c r kids : chk_list g p (Some c :: r) kids =
  if droppedb g p c then option_map (cons c) (chk_list g p r kids)
  else match kids with
       | [] => None
       | t :: kr => match chk g p c t with
                    | None => None
                    | Some d1 => option_map (app d1) (chk_list g p r kr)
                    end
       end.
Proof.
  destruct kids as [|t kr]; simpl; destruct (droppedb g p c); try reflexivity.
  - destruct (skip g p r) as [d rest]. destruct rest; reflexivity.
  - destruct (skip g p r) as [d rest]. destruct rest as [|[c'|] r']; try reflexivity.
    destruct (chk g p c' t); [|reflexivity]. destruct (chk_list g p r' kr); reflexivity.
Qed.

Lemma chk_complete g :
  (forall path n os ds, Unf g path n os ds ->
     match os with Some s => chk g path n s = Some ds | None => droppedb g path n = true /\ ds = [n] end) /\
  (forall path cs ss ds, UnfL g path cs ss ds -> chk_list g path cs ss = Some ds).
Proof.
  apply Unf_mutind.
  - intros path n nd Hn Hk Hin. split; [|reflexivity]. rewrite (droppedb_nd _ _ _ _ Hn).
    destruct (g_key nd); [now apply memn_In|contradiction].
  - intros path n nd kids ds Hn Hk Hnin HL IH. rewrite chk_unfold, Nat.eqb_refl, Hn, (droppedb_nd _ _ _ _ Hn). simpl.
    destruct (g_key nd); [|contradiction]. destruct (memn n path) eqn:E; [apply memn_In in E; contradiction|exact IH].
  - intros path n nd kids ds Hn Hk HL IH. rewrite chk_unfold, Nat.eqb_refl, Hn, (droppedb_nd _ _ _ _ Hn), Hk. exact IH.
  - intros path. reflexivity.
  - intros path r ss ds HL IH. rewrite chk_list_skip. exact IH.
  - intros path c r os ss d1 d2 HU IH1 HL IH2. rewrite chk_list_cons. destruct os as [s|].
    + destruct (droppedb g path c) eqn:E; [|rewrite IH1, IH2; reflexivity].
      destruct s as [m ks]. rewrite chk_unfold, E in IH1. destruct (negb (Nat.eqb c m)), (nth_error g c); discriminate.
    + destruct IH1 as [-> ->]. rewrite IH2. reflexivity.
Qed.

Lemma chk_sound_list g : forall cs kids path ds,
  Forall (fun s => forall path n ds, chk g path n s = Some ds -> Unf g path n (Some s) ds) kids ->
  chk_list g path cs kids = Some ds -> UnfL g path cs kids ds.
Proof.
  induction cs as [|[c|] r IH]; intros kids path ds HF H.
  - rewrite chk_list_nil in H. destruct kids; inversion H. constructor.
  - rewrite chk_list_cons in H. destruct (droppedb g path c) eqn:E.
    + destruct (chk_list g path r kids) as [d|] eqn:E2; [|discriminate]. inversion H; subst.
      apply (UnfL_cons g path c r None kids [c] d); [apply droppedb_cut, E|apply IH; assumption].
    + destruct HF as [|t kr Ht HF]; [discriminate|]. destruct (chk g path c t) as [d1|] eqn:E1; [|discriminate].
      destruct (chk_list g path r kr) as [d2|] eqn:E2; [|discriminate]. inversion H; subst.
      apply (UnfL_cons g path c r (Some t) kr d1 d2); [apply Ht, E1|apply IH; assumption].
  - rewrite chk_list_skip in H. constructor. apply IH; assumption.
Qed.

Lemma chk_sound g : forall s path n ds, chk g path n s = Some ds -> Unf g path n (Some s) ds.
Proof.
  induction s as [m kids IH] using shape_ind'. intros path n ds H.
  rewrite chk_unfold in H. destruct (Nat.eqb_spec n m) as [<-|]; simpl in H; [|discriminate].
  destruct (nth_error g n) as [nd|] eqn:Hn; [|discriminate].
  rewrite (droppedb_nd _ _ _ _ Hn) in H. destruct (g_key nd) as [k|] eqn:Hk.
  - destruct (memn n path) eqn:E; [discriminate|]. eapply Unf_tracked; eauto; [congruence| |apply chk_sound_list; eauto].
    rewrite <- memn_In. congruence.
  - eapply Unf_untracked; eauto. apply chk_sound_list; assumption.
Qed.

Lemma chk_iff g path n s ds : chk g path n s = Some ds <-> Unf g path n (Some s) ds.
Proof. split; [apply chk_sound|]. intros H. exact (proj1 (chk_complete g) _ _ _ _ H). Qed.

Lemma chk_list_iff g path cs ss ds : chk_list g path cs ss = Some ds <-> UnfL g path cs ss ds.
Proof.
  split; [|apply (proj2 (chk_complete g))].
  apply chk_sound_list. apply Forall_forall. intros s _. apply chk_sound.
Qed.

Lemma flags_soundb_sound g : forall t path, flags_soundb g path t = true -> FlagsSound g path t.
Proof.
  induction t as [n cyc kids IH] using tree_ind'. intros path H. cbn [flags_soundb] in H.
  apply andb_true_iff in H as [H1 H2]. constructor.
  - intros ->. cbn [negb orb] in H1.
    destruct (chk g path n (SNode n (map erase kids))) as [ds|] eqn:E; [|discriminate].
    exists (Some (SNode n (map erase kids))), ds. split; [apply chk_sound; exact E|apply memn_In; exact H1].
  - rewrite forallb_forall in H2. rewrite Forall_forall in *. intros t Hin. apply IH; auto.
Qed.

Lemma UnfL_kids g path cs ss ds : UnfL g path cs ss ds ->
  Forall (fun s => exists c d, Unf g path c (Some s) d) ss.
Proof.
  induction 1 as [| |path c r os ss d1 d2 HU HL IH]; [constructor|assumption|].
  destruct os as [s|]; [constructor; [exists c, d1; exact HU|exact IH]|exact IH].
Qed.

Lemma Unf_some_inv g path n m kids ds : Unf g path n (Some (SNode m kids)) ds ->
  n = m /\ exists nd, nth_error g n = Some nd /\ UnfL g (path_ext g path n) (causes_of nd) kids ds.
Proof.
  intros H. inversion H as [|? ? nd ? ? Hn Hk ? HL|? ? nd ? ? Hn Hk HL]; subst; (split; [reflexivity|]);
    exists nd; rewrite (path_ext_nd _ _ _ _ Hn); (split; [exact Hn|]).
  - destruct (g_key nd); [exact HL|contradiction].
  - rewrite Hk. exact HL.
Qed.

Lemma flags_soundb_complete g : forall t path n ds,
  Unf g path n (Some (erase t)) ds -> FlagsSound g path t -> flags_soundb g path t = true.
Proof.
  induction t as [m cyc kids IH] using tree_ind'. intros path n ds HU HF.
  simpl in HU. pose proof HU as HU0. apply Unf_some_inv in HU as [-> [nd [Hn HL]]].
  inversion HF; subst. cbn [flags_soundb]. apply andb_true_iff. split.
  - destruct cyc; [|reflexivity]. cbn [negb orb].
    destruct (H2 eq_refl) as [os [ds' [HU' Hin]]].
    destruct (proj1 (Unf_functional g) _ _ _ _ HU0 _ _ HU') as [<- <-].
    apply chk_iff in HU0. rewrite HU0. apply memn_In. exact Hin.
  - apply forallb_forall. intros t Hin.
    pose proof (UnfL_kids _ _ _ _ _ HL) as HK. rewrite Forall_forall in HK, IH, H4.
    destruct (HK (erase t) (in_map erase _ _ Hin)) as [c [d HUt]].
    eapply IH; eauto.
Qed.

Lemma tree_eqb_unfold n c ks m d ls :
  tree_eqb (Node n c ks) (Node m d ls) = Nat.eqb n m && Bool.eqb c d && list_eqb tree_eqb ks ls.
Proof.
  simpl. f_equal. revert ls. induction ks as [|x r IH]; intros [|y ls]; simpl; try reflexivity. now rewrite IH.
Qed.

Lemma tree_eqb_eq : forall a b, tree_eqb a b = true <-> a = b.
Proof.
  induction a as [n c ks IH] using tree_ind'. intros [m d ls].
  rewrite tree_eqb_unfold, !andb_true_iff, Nat.eqb_eq, Bool.eqb_true_iff, (list_eqb_eq_in _ _ IH).
  split; [intros [[-> ->] ->]; reflexivity|intros E; inversion E; auto].
Qed.

Lemma trees_eqb_eq a b : trees_eqb a b = true <-> a = b.
Proof. apply list_eqb_eq, tree_eqb_eq. Qed.

Lemma pair_eqb_eq a b : pair_eqb a b = true <-> a = b.
Proof.
  destruct a, b. unfold pair_eqb. simpl. rewrite andb_true_iff, !Nat.eqb_eq.
  split; [intros [-> ->]; reflexivity|intros E; inversion E; auto].
Qed.

(* Walk, for every consumer: the visits of the pre-order are pushed into [y] until it says stop *)
Fixpoint feed {St} (y : nat -> nat -> St -> St * bool) (l : list (nat * nat)) (s : St) : St * bool :=
  match l with
  | [] => (s, true)
  | (d, n) :: r => let (s1, go) := y d n s in if negb go then (s1, false) else feed y r s1
  end.

Lemma feed_app {St} (y : nat -> nat -> St -> St * bool) l1 l2 : forall s,
  feed y (l1 ++ l2) s = let (s1, go) := feed y l1 s in if negb go then (s1, false) else feed y l2 s1.
Proof.
  induction l1 as [|[d n] r IH]; intros s; simpl; [reflexivity|].
  destruct (y d n s) as [s1 go]. destruct go; simpl; [apply IH|reflexivity].
Qed.

Lemma walk_loop_feed {St} (y : nat -> nat -> St -> St * bool) (f : tree -> St -> St * bool) pre l :
  Forall (fun c => forall s, f c s = feed y (pre c) s) l ->
  forall s, walk_loop f l s = feed y (flat_map pre l) s.
Proof.
  induction 1 as [|c r Hc _ IH]; intros s; simpl; [reflexivity|].
  rewrite feed_app, Hc. destruct (feed y (pre c) s) as [s1 go]. destruct go; simpl; [apply IH|reflexivity].
Qed.

Lemma walk_node_feed {St} (y : nat -> nat -> St -> St * bool) : forall t d s,
  walk_node y t d s = feed y (preorder d t) s.
Proof.
  induction t as [n c kids IH] using tree_ind'. intros d s. cbn [walk_node preorder feed].
  destruct (y d n s) as [s1 go]. destruct go; [|reflexivity]. cbn [negb].
  apply walk_loop_feed. revert IH. apply Forall_impl. intros t H. apply H.
Qed.

Lemma walk_nodes_feed {St} (y : nat -> nat -> St -> St * bool) ts s :
  walk_nodes y ts s = feed y (preorder_all ts) s.
Proof. apply walk_loop_feed, Forall_forall. intros t _. apply walk_node_feed. Qed.

(* the consumer of the check: [acc] is what it has collected, not yet k elements *)
Lemma feed_collect k : forall l acc, List.length acc < k \/ k = 0 ->
  fst (feed (collect k) l acc) = firstn_or_all k (acc ++ l).
Proof.
  induction l as [|[d n] r IH]; intros acc Hk; cbn [feed collect].
  - rewrite app_nil_r. destruct k; [reflexivity|]. symmetry. apply firstn_all2. cbn [fst]. lia.
  - rewrite negb_involutive. replace (acc ++ (d, n) :: r) with ((acc ++ [(d, n)]) ++ r) by now rewrite <- app_assoc.
    pose proof (app_length acc [(d, n)]) as L. cbn [List.length] in L.
    destruct (Nat.eqb_spec (List.length (acc ++ [(d, n)])) k) as [E|E].
    + destruct k; [lia|]. cbn [fst firstn_or_all]. rewrite <- E, firstn_app, Nat.sub_diag, firstn_all. symmetry. apply app_nil_r.
    + apply IH. lia.
Qed.

Lemma walk_break_firstn k ts : walk_break k ts = firstn_or_all k (preorder_all ts).
Proof. unfold walk_break. rewrite walk_nodes_feed. apply (feed_collect k _ []). simpl. lia. Qed.

Lemma walk_preorder ts : walk ts = preorder_all ts.
Proof. exact (walk_break_firstn 0 ts). Qed.

Lemma preorder_length : forall t d, List.length (preorder d t) = tsize t.
Proof.
  induction t as [n c kids IH] using tree_ind'. intros d. simpl. f_equal.
  rewrite flat_map_length. f_equal. apply map_ext_in. intros t Hin.
  rewrite Forall_forall in IH. apply IH. exact Hin.
Qed.

Lemma preorder_all_length ts : List.length (preorder_all ts) = list_sum (map tsize ts).
Proof.
  unfold preorder_all. rewrite flat_map_length. f_equal. apply map_ext. intros t. apply preorder_length.
Qed.

Lemma walk_length ts : List.length (walk ts) = list_sum (map tsize ts).
Proof. rewrite walk_preorder. apply preorder_all_length. Qed.

Definition closedb (g : graph) : bool :=
  forallb (fun nd => forallb (fun oc => match oc with Some c => Nat.ltb c (List.length g) | None => true end)
                             (causes_of nd)) g.
Definition nomarkerb (g : graph) : bool :=
  forallb (fun nd => match g_key nd with Some k => negb (N.eqb k marker_key) | None => true end) g.
Fixpoint nodup_keys (l : list (option N)) : bool :=
  match l with
  | [] => true
  | None :: r => nodup_keys r
  | Some k :: r => negb (existsb (fun o => match o with Some k' => N.eqb k k' | None => false end) r)
                   && nodup_keys r
  end.
Definition injb (g : graph) : bool := nodup_keys (map g_key g).
Definition rankedb (g : graph) : bool :=
  forallb (fun p : nat * gnode =>
             let (n, nd) := p in
             match g_key nd with
             | Some _ => true
             | None => forallb (fun oc => match oc with
                                          | Some c => match nth_error g c with
                                                      | Some cd => match g_key cd with
                                                                   | None => Nat.ltb c n
                                                                   | Some _ => true
                                                                   end
                                                      | None => true
                                                      end
                                          | None => true
                                          end) (causes_of nd)
             end) (combine (seq 0 (List.length g)) g).
Definition Gb (g : graph) : bool := closedb g && nomarkerb g && injb g && rankedb g.

Lemma closedb_sound g : closedb g = true -> closed g.
Proof.
  unfold closedb, closed. rewrite forallb_forall. intros H n nd c Hn Hin.
  specialize (H nd (nth_error_In _ _ Hn)). rewrite forallb_forall in H.
  specialize (H _ Hin). simpl in H. now apply Nat.ltb_lt.
Qed.

Lemma nomarkerb_sound g : nomarkerb g = true -> keys_not_marker g.
Proof.
  unfold nomarkerb, keys_not_marker. rewrite forallb_forall. intros H n nd k Hn Hk.
  specialize (H nd (nth_error_In _ _ Hn)). rewrite Hk in H. apply negb_true_iff, N.eqb_neq in H. exact H.
Qed.

Lemma nodup_keys_head k r i : nodup_keys (Some k :: r) = true -> nth_error r i <> Some (Some k).
Proof.
  simpl. intros H Hi. apply andb_true_iff in H as [H _]. apply negb_true_iff, not_true_iff_false in H. apply H.
  apply existsb_exists. exists (Some k). split; [exact (nth_error_In _ _ Hi)|apply N.eqb_refl].
Qed.

Lemma nodup_keys_sound l : nodup_keys l = true ->
  forall n m k, nth_error l n = Some (Some k) -> nth_error l m = Some (Some k) -> n = m.
Proof.
  induction l as [|o r IH]; intros H [|n] [|m] k Hn Hm; simpl in Hn, Hm; try discriminate; auto.
  - inversion Hn; subst o. now destruct (nodup_keys_head _ _ _ H Hm).
  - inversion Hm; subst o. now destruct (nodup_keys_head _ _ _ H Hn).
  - f_equal. apply IH with (k := k); auto. destruct o; [apply andb_true_iff in H as [_ H]|]; exact H.
Qed.

Lemma injb_sound g : injb g = true -> keys_injective g.
Proof.
  unfold injb, keys_injective. intros H n m nd md k Hn Hm Kn Km.
  apply (nodup_keys_sound _ H n m k); rewrite nth_error_map; [rewrite Hn|rewrite Hm]; simpl; congruence.
Qed.

Lemma rankedb_sound g : rankedb g = true -> untracked_ranked g.
Proof.
  intros H n nd c cd Hn Hk Hin Hc Kc. apply forallb_indexed with (1 := H) in Hn. rewrite Hk in Hn.
  rewrite forallb_forall in Hn. specialize (Hn _ Hin). simpl in Hn. rewrite Hc, Kc in Hn.
  now apply Nat.ltb_lt.
Qed.

Lemma Gb_sound g : Gb g = true -> G g.
Proof.
  unfold Gb. rewrite !andb_true_iff. intros [[[H1 H2] H3] H4].
  repeat split; [apply closedb_sound|apply nomarkerb_sound|apply injb_sound|apply rankedb_sound]; assumption.
Qed.

Lemma build_nodes_total g fuel cs : closed g -> keys_not_marker g -> untracked_ranked g ->
  (forall c, In (Some c) cs -> c < List.length g /\ measure g [] c < fuel) ->
  exists ts vm, build_nodes fuel g cs [] = Some (ts, vm).
Proof.
  intros Hcl Hnz Hrk Hcs.
  destruct (rel_inv _ _ _ (refine_nodes g fuel cs Hnz)) as [[_ E]|[ts [vm [_ [E _]]]]]; [exfalso; revert E|eauto].
  apply build_list_p_total. intros c mk Hin. apply build_node_p_total; auto; now apply Hcs.
Qed.

Lemma build_cause_tree_inv fuel g recv ts : build_cause_tree fuel g recv = Some ts ->
  exists nd vm, nth_error g recv = Some nd /\ build_nodes fuel g (causes_of nd) [] = Some (ts, vm).
Proof.
  unfold build_cause_tree. destruct (nth_error g recv) as [nd|]; [|discriminate].
  destruct (build_nodes fuel g (causes_of nd) []) as [[ts' vm]|] eqn:E; [|discriminate].
  intros H. inversion H; subst. exists nd, vm. split; [reflexivity|exact E].
Qed.

Lemma terminates g recv : G g -> recv < List.length g ->
  forall fuel, fuel_bound g <= fuel -> exists ts, build_cause_tree fuel g recv = Some ts.
Proof.
  intros (Hcl & Hnz & _ & Hrk) Hr fuel Hf. unfold build_cause_tree.
  destruct (nth_error g recv) as [nd|] eqn:Hn; [|apply nth_error_None in Hn; lia].
  destruct (build_nodes_total g fuel (causes_of nd) Hcl Hnz Hrk) as [ts [vm E]]; [|rewrite E; eauto].
  intros c Hin. assert (Hc : c < List.length g) by (eapply Hcl; eauto).
  pose proof (measure_lt_bound g [] c). split; [exact Hc|lia].
Qed.

Lemma unwrap_tree_total g recv : G g -> recv < List.length g ->
  exists ts, unwrap_tree g recv = Some ts.
Proof. intros HG Hr. exact (terminates g recv HG Hr (fuel_bound g) (le_n _)). Qed.

Lemma cause_tree_spec g recv nd fuel ts : keys_not_marker g -> keys_injective g -> nth_error g recv = Some nd ->
  build_cause_tree fuel g recv = Some ts ->
  exists ds, UnfL g [] (causes_of nd) (map erase ts) ds /\ (has_cycle ts = true <-> ds <> []) /\
             Forall (FlagsSound g []) ts.
Proof.
  intros Hnz Hinj Hn H. destruct (build_cause_tree_inv _ _ _ _ H) as [nd' [vm [Hn' Hb]]].
  rewrite Hn in Hn'. inversion Hn'; subst nd'.
  destruct (rel_inv _ _ _ (refine_nodes g fuel (causes_of nd) Hnz)) as [[E _]|[ts' [vm' [mk' [E [Hp _]]]]]];
    rewrite Hb in E; inversion E; subst.
  destruct (build_list_p_spec _ g [] [] (build_node_p_spec g Hinj fuel [] [] (Forall2_nil _)) _ _ _ _ Hp I)
    as [ds [HU [P HF]]].
  exists ds. split; [exact HU|]. split; [exact (post_top _ _ _ _ P)|exact HF].
Qed.

Lemma flag_sound g recv fuel ts : keys_not_marker g -> keys_injective g ->
  build_cause_tree fuel g recv = Some ts -> Forall (FlagsSound g []) ts.
Proof.
  intros Hnz Hinj H. destruct (build_cause_tree_inv _ _ _ _ H) as [nd [_ [Hn _]]].
  destruct (cause_tree_spec g recv nd fuel ts Hnz Hinj Hn H) as [ds [_ [_ H3]]]. exact H3.
Qed.

Lemma sharing_not_flagged g recv nd fuel ts ss : keys_not_marker g -> keys_injective g ->
  nth_error g recv = Some nd -> build_cause_tree fuel g recv = Some ts ->
  UnfL g [] (causes_of nd) ss [] -> ss = map erase ts /\ has_cycle ts = false.
Proof.
  intros Hnz Hinj Hn H HU. destruct (cause_tree_spec g recv nd fuel ts Hnz Hinj Hn H) as [ds [H1 [H2 _]]].
  destruct (proj2 (Unf_functional g) _ _ _ _ HU _ _ H1) as [-> <-]. split; [reflexivity|].
  destruct (has_cycle ts); [|reflexivity]. exfalso. apply (proj1 H2); reflexivity.
Qed.

(* keys_not_marker (g_zero) and keys_injective (g_alias) are necessary; for untracked_ranked see
   C07ValueCycle.vcycle_refuted *)
Definition gp (k : N) (u : unw) : gnode := {| g_key := Some k; g_unwrap := u; g_errdef := false |}.
Definition ge (k : N) (cs : list (option nat)) : gnode := {| g_key := Some k; g_unwrap := UMulti cs; g_errdef := true |}.

(* D.Wrap(p) with p a nil pointer of type pointer-to-T: node 0 is a typed nil pointer (key = the marker slot), node 1 the receiver *)
Definition g_zero : graph := [ gp marker_key UNone; ge 9%N [Some 0] ].
(* D.Wrap(a), a = &A{} with cause b = &B{}, A and B distinct zero-size types: one address *)
Definition g_alias : graph := [ gp 5%N (USingle (Some 1)); gp 5%N UNone; ge 9%N [Some 0] ].

Lemma zero_key_refuted :
  closed g_zero /\ keys_injective g_zero /\ untracked_ranked g_zero /\
  unwrap_tree g_zero 1 = Some [Node 0 true []] /\
  has_cycle [Node 0 true []] = true /\
  UnfL g_zero [] [Some 0] (map erase [Node 0 true []]) [] /\
  ~ FlagsSound g_zero [] (Node 0 true []).
Proof.
  split; [apply closedb_sound; vm_compute; reflexivity|].
  split; [apply injb_sound; vm_compute; reflexivity|].
  split; [apply rankedb_sound; vm_compute; reflexivity|].
  split; [vm_compute; reflexivity|]. split; [reflexivity|].
  split; [apply chk_list_iff; vm_compute; reflexivity|].
  intros HF. apply (flags_soundb_complete g_zero _ [] 0 []) in HF.
  - vm_compute in HF. discriminate.
  - apply chk_iff. vm_compute. reflexivity.
Qed.

Lemma alias_refuted :
  closed g_alias /\ keys_not_marker g_alias /\ untracked_ranked g_alias /\
  unwrap_tree g_alias 2 = Some [Node 0 true []] /\
  UnfL g_alias [] [Some 0] [SNode 0 [SNode 1 []]] [] /\
  forall ds, ~ UnfL g_alias [] [Some 0] (map erase [Node 0 true []]) ds.
Proof.
  split; [apply closedb_sound; vm_compute; reflexivity|].
  split; [apply nomarkerb_sound; vm_compute; reflexivity|].
  split; [apply rankedb_sound; vm_compute; reflexivity|].
  split; [vm_compute; reflexivity|].
  split; [apply chk_list_iff; vm_compute; reflexivity|].
  intros ds H. apply chk_list_iff in H. vm_compute in H. discriminate.
Qed.

Lemma corr_implies_ok c : G (c_graph c) -> corr c = true -> ok c = true.
Proof.
  intros (_ & Hnz & Hinj & _). unfold corr, ok.
  destruct (unwrap_tree (c_graph c) (c_recv c)) as [ts|] eqn:HT; [|discriminate].
  rewrite !andb_true_iff. intros [[[[[Hp Ht] Hh] Hw] Hb] Hu].
  apply trees_eqb_eq in Ht. apply Bool.eqb_prop in Hh.
  apply (list_eqb_eq _ pair_eqb_eq) in Hw. apply (list_eqb_eq _ pair_eqb_eq) in Hb.
  unfold unwrap_tree_from in Hu. rewrite HT in Hu.
  destruct (build_cause_tree_inv _ _ _ _ HT) as [nd [_ [Hn _]]]. rewrite Hn.
  destruct (cause_tree_spec _ _ _ _ _ Hnz Hinj Hn HT) as [ds [HU [Hc HF]]].
  subst ts. apply chk_list_iff in HU as HC. rewrite HC, Hp. simpl.
  rewrite !andb_true_iff. repeat split.
  - rewrite <- Hh. destruct ds; simpl.
    + destruct (has_cycle (c_tree c)); [|reflexivity]. exfalso. apply (proj1 Hc); reflexivity.
    + rewrite (proj2 Hc); [reflexivity|discriminate].
  - apply forallb_forall. intros t Hin.
    pose proof (UnfL_kids _ _ _ _ _ HU) as HK. rewrite Forall_forall in HK, HF.
    destruct (HK (erase t) (in_map erase _ _ Hin)) as [n [d HUt]].
    eapply flags_soundb_complete; eauto.
  - rewrite <- Hw, walk_preorder. apply list_eqb_refl, pair_eqb_eq.
  - rewrite <- Hb, walk_break_firstn. apply list_eqb_refl, pair_eqb_eq.
  - apply (option_eqb_eq _ trees_eqb_eq).
    destruct (c_tree c) as [|t r]; apply (option_eqb_eq _ trees_eqb_eq) in Hu; symmetry; exact Hu.
Qed.
