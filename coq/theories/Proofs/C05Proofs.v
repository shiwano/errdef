(* C05: which entries of the goroutine stack an error keeps, for every constructor, derivation path
   and option list, from the GENERATED chain and constants (Gen/Chain.v, Gen/Consts.v), and that every
   view is the same list.  The stack itself and the symbolisers are inputs (see Properties/C05.v). *)
From Errdef Require Import Base.Str Base.ListFacts Model.Core Model.Stack Check.C05 Proofs.ProgFacts.
Local Open Scope Z_scope.

Lemma sum_skips_app a b : sum_skips (a ++ b) = sum_skips a + sum_skips b.
Proof. induction a as [|o r IH]; simpl; [reflexivity|]. destruct o; rewrite ?IH; lia. Qed.

Lemma last_depth_app a b cur : last_depth (a ++ b) cur = last_depth b (last_depth a cur).
Proof. revert cur. induction a as [|o r IH]; intros cur; simpl; [reflexivity|]. destruct o; apply IH. Qed.

Lemma apply_opts_stack os : forall d,
  d_skip (apply_opts d os) = d_skip d + sum_skips os /\
  d_notrace (apply_opts d os) = d_notrace d || has_notrace os /\
  d_depth (apply_opts d os) = last_depth os (d_depth d).
Proof.
  unfold apply_opts. induction os as [|o r IH]; intros d; simpl; [rewrite orb_false_r; repeat split; lia|].
  destruct (IH (apply_opt d o)) as (-> & -> & ->). destruct o; simpl; rewrite ?orb_true_r; repeat split; lia.
Qed.

Lemma with_options_stack a d os :
  d_skip (with_options a d os) = d_skip d + sum_skips os /\
  d_notrace (with_options a d os) = d_notrace d || has_notrace os /\
  d_depth (with_options a d os) = last_depth os (d_depth d).
Proof. destruct os; [simpl; rewrite orb_false_r; repeat split; lia|exact (apply_opts_stack _ (clone a d))]. Qed.

Lemma factory_as_opts a0 a1 org kind dopts p : exists rest,
  all_opts dopts p = dopts ++ rest /\
  factory a0 a1 org kind dopts p = with_options a1 (define a0 org kind dopts) rest.
Proof.
  unfold factory, all_opts. destruct p as [|ctx o|o]; eexists; (split; [reflexivity|]);
    [reflexivity|apply with_as_opts|reflexivity].
Qed.

Lemma factory_stack a0 a1 org kind dopts p :
  d_skip (factory a0 a1 org kind dopts p) = sum_skips (all_opts dopts p) /\
  d_notrace (factory a0 a1 org kind dopts p) = has_notrace (all_opts dopts p) /\
  d_depth (factory a0 a1 org kind dopts p) = last_depth (all_opts dopts p) 0.
Proof.
  destruct (factory_as_opts a0 a1 org kind dopts p) as (rest & -> & ->).
  destruct (with_options_stack a1 (define a0 org kind dopts) rest) as (-> & -> & ->).
  rewrite (define_as_opts a0 org kind dopts).
  destruct (apply_opts_stack dopts (define a0 org kind [])) as (-> & -> & ->).
  unfold has_notrace. now rewrite sum_skips_app, last_depth_app, existsb_app.
Qed.

Lemma zfirstn_eq {A} n (l : list A) : zfirstn n l = firstn (Z.to_nat n) l.
Proof.
  revert n. induction l as [|x r IH]; intros n; cbn [zfirstn].
  - now rewrite firstn_nil.
  - destruct (Z.ltb_spec 0 n) as [H|H].
    + rewrite IH. replace (Z.to_nat n) with (S (Z.to_nat (n - 1))) by lia. reflexivity.
    + replace (Z.to_nat n) with 0%nat by lia. reflexivity.
Qed.
Lemma zskipn_eq {A} n (l : list A) : zskipn n l = skipn (Z.to_nat n) l.
Proof.
  revert n. induction l as [|x r IH]; intros n; cbn [zskipn].
  - now rewrite skipn_nil.
  - destruct (Z.ltb_spec 0 n) as [H|H].
    + rewrite IH. replace (Z.to_nat n) with (S (Z.to_nat (n - 1))) by lia. reflexivity.
    + replace (Z.to_nat n) with 0%nat by lia. reflexivity.
Qed.

Lemma chain_ok_all k : chain_ok k = true.
Proof. destruct k; reflexivity. Qed.

(* the constructor's skip removes exactly the library's own frames *)
Lemma ctor_stack_ok {A} k d (chain_pcs user : list A) :
  List.length chain_pcs = List.length (chain_of k) -> 0 <= d_skip d ->
  ctor_stack k d chain_pcs user
  = if d_notrace d then None
    else Some (firstn (Z.to_nat (eff_depth d)) (skipn (Z.to_nat (d_skip d)) user)).
Proof.
  intros L S. destruct (proj1 (andb_true_iff _ _) (chain_ok_all k)) as [_ C]. apply Z.eqb_eq in C.
  unfold ctor_stack, new_error_stack, go_callers, gstack. rewrite zfirstn_eq, zskipn_eq.
  destruct (d_notrace d); [reflexivity|]. do 2 f_equal.
  replace (Z.to_nat (d_skip d + ctor_skip k)) with (List.length chain_pcs + Z.to_nat (d_skip d))%nat by lia.
  apply skipn_app_length.
Qed.

(* the brief's [capture] is what newError computes *)
Lemma new_error_stack_capture {A} k d (gs : list A) :
  new_error_stack d (ctor_skip k) gs
  = if d_notrace d then None else Some (capture d (ctor_extra k) gs).
Proof.
  unfold new_error_stack, capture, go_callers, ctor_extra. rewrite !zfirstn_eq, !zskipn_eq. destruct (d_notrace d); [reflexivity|].
  do 3 f_equal. lia.
Qed.

Lemma eff_depth_spec a0 a1 org kind dopts p :
  eff_depth (factory a0 a1 org kind dopts p) = spec_depth (all_opts dopts p).
Proof.
  unfold eff_depth, spec_depth. destruct (factory_stack a0 a1 org kind dopts p) as (_ & _ & ->). now rewrite Z.gtb_ltb.
Qed.

Lemma spec_depth_pos os : 0 < spec_depth os.
Proof.
  unfold spec_depth, default_depth. destruct (Z.ltb 0 (last_depth os 0)) eqn:E; [|lia].
  now apply Z.ltb_lt in E.
Qed.

(* StackDepth(n), n > 0, keeps n; 32 otherwise *)
Lemma spec_depth_cases os :
  (forall n, 0 < n -> last_depth os 0 = n -> spec_depth os = n) /\ (last_depth os 0 <= 0 -> spec_depth os = default_depth).
Proof. unfold spec_depth, default_depth. destruct (Z.ltb_spec 0 (last_depth os 0)); split; intros; lia. Qed.

Lemma stack_by_options {A} (lib : string -> A) k a0 a1 org kind dopts p (user : list A) :
  0 <= sum_skips (all_opts dopts p) ->
  ctor_stack k (factory a0 a1 org kind dopts p) (map lib (chain_of k)) user
  = if has_notrace (all_opts dopts p) then None
    else Some (firstn (Z.to_nat (spec_depth (all_opts dopts p)))
                 (skipn (Z.to_nat (sum_skips (all_opts dopts p))) user)).
Proof.
  intros S. destruct (factory_stack a0 a1 org kind dopts p) as (Sk & Nt & _).
  rewrite ctor_stack_ok; [| apply map_length | now rewrite Sk]. now rewrite Nt, Sk, eff_depth_spec.
Qed.

Lemma head_is_caller {A} (sym : A -> frame) (lib : string -> A) k a0 a1 org kind dopts p (u : A) rest :
  has_notrace (all_opts dopts p) = false -> sum_skips (all_opts dopts p) = 0 ->
  head_frame sym (ctor_stack k (factory a0 a1 org kind dopts p) (map lib (chain_of k)) (u :: rest))
  = Some (sym u).
Proof.
  intros NT S. rewrite stack_by_options by lia.
  rewrite NT, S. pose proof (spec_depth_pos (all_opts dopts p)) as P.
  destruct (Z.to_nat (spec_depth (all_opts dopts p))) eqn:E; [lia|]. reflexivity.
Qed.

Lemma depth_keeps_min {A} (lib : string -> A) k a0 a1 org kind dopts p (user : list A) :
  0 <= sum_skips (all_opts dopts p) -> has_notrace (all_opts dopts p) = false ->
  len (ctor_stack k (factory a0 a1 org kind dopts p) (map lib (chain_of k)) user)
  = Z.min (spec_depth (all_opts dopts p))
          (Z.max 0 (Z.of_nat (List.length user) - sum_skips (all_opts dopts p))).
Proof.
  intros S NT. rewrite stack_by_options by assumption. rewrite NT. unfold len. simpl pcs_of.
  rewrite firstn_length, skipn_length. pose proof (spec_depth_pos (all_opts dopts p)). lia.
Qed.

Lemma notrace_absent {A} k d (chain_pcs user : list A) :
  d_notrace d = true ->
  ctor_stack k d chain_pcs user = None /\ stack_from (ctor_stack k d chain_pcs user) = None.
Proof. intros H. unfold ctor_stack, new_error_stack. rewrite H. split; reflexivity. Qed.

Lemma views_agree {A} (sym : A -> frame) (s : option (list A)) :
  let F := map sym (pcs_of s) in
  frames sym s = F /\ head_frame sym s = hd_error F /\ len s = Z.of_nat (List.length F)
  /\ frames_and_source sym s = F /\ map sym (stack_trace s) = F
  /\ json_stack sym s = (if nilb F then None else Some F)
  /\ slog_stack sym s = F /\ slog_origin sym s = hd_error F
  /\ (stack_from s = None <-> F = []).
Proof.
  intros F. subst F. unfold frames_and_source, stack_trace, json_stack, slog_stack, slog_origin,
    stack_from, is_zero, len, frames, head_frame. rewrite map_length.
  destruct (pcs_of s) as [|pc r]; simpl; repeat split; try reflexivity; try discriminate.
Qed.

Lemma debug_funcforpc_agrees {A} (sym : A -> frame) (sym2 : A -> option frame) s :
  (forall pc, In pc (pcs_of s) -> sym2 pc = Some (sym pc)) ->
  debug_stack_funcforpc sym2 s = frames sym s.
Proof.
  unfold debug_stack_funcforpc, frames, stack_trace. induction (pcs_of s) as [|pc r IH]; intros H; simpl; [reflexivity|].
  rewrite (H pc) by now left. simpl. f_equal. apply IH. intros q Hq. apply H. now right.
Qed.

Lemma debug_callersframes_agrees {A} (sym : A -> frame) s :
  (forall pc, In pc (pcs_of s) -> named (sym pc) = true) ->
  debug_stack_callersframes sym s = frames sym s.
Proof.
  intros H. unfold debug_stack_callersframes, frames, stack_trace.
  destruct Gen.Chain.debugstack_skips_unnamed; [|reflexivity].
  apply filter_all. intros f Hf. apply in_map_iff in Hf as (pc & <- & Hpc). now apply H.
Qed.

(* holds whichever symboliser DebugStack uses *)
Lemma debugstack_agrees_partial {A} (sym : A -> frame) (sym2 : A -> option frame) s :
  (forall pc, In pc (pcs_of s) -> sym2 pc = Some (sym pc)) ->
  (forall pc, In pc (pcs_of s) -> named (sym pc) = true) ->
  debug_stack sym sym2 s = frames sym s.
Proof.
  intros H N. unfold debug_stack. destruct (str_eqb _ _);
    [now apply debug_callersframes_agrees | now apply debug_funcforpc_agrees].
Qed.

(* DebugStack symbolises with runtime.CallersFrames (generated fact): no
   hypothesis about the second symboliser *)
Lemma debugstack_agrees {A} (sym : A -> frame) (sym2 : A -> option frame) s :
  (forall pc, In pc (pcs_of s) -> named (sym pc) = true) ->
  debug_stack sym sym2 s = frames sym s.
Proof.
  intros N. unfold debug_stack.
  replace (str_eqb Gen.Chain.debugstack_symboliser "runtime.CallersFrames") with true by reflexivity.
  now apply debug_callersframes_agrees.
Qed.

Lemma frame_eqb_eq a b : frame_eqb a b = true <-> a = b.
Proof.
  destruct a as [f1 p1 l1], b as [f2 p2 l2]. unfold frame_eqb. simpl.
  rewrite !andb_true_iff, !str_eqb_eq, Z.eqb_eq. split.
  - intros [[-> ->] ->]. reflexivity.
  - intros H. injection H as -> -> ->. auto.
Qed.
Lemma frames_eqb_eq a b : frames_eqb a b = true <-> a = b.
Proof. apply list_eqb_eq, frame_eqb_eq. Qed.

Lemma model_stack_spec c :
  in_domain c = true ->
  model_stack c = (if has_notrace (opts_of c) then None else Some (spec_frames c))
  /\ pcs_of (model_stack c) = spec_frames c.
Proof.
  intros D. unfold model_stack, model_defn, chain_frames.
  rewrite stack_by_options by now apply Z.leb_le.
  unfold spec_frames, opts_of. rewrite zfirstn_eq, zskipn_eq. destruct (has_notrace _); split; reflexivity.
Qed.

Lemma spec_frames_in_user c f : In f (spec_frames c) -> In f (user c).
Proof.
  unfold spec_frames. destruct (has_notrace _); simpl; [tauto|].
  rewrite zfirstn_eq, zskipn_eq. intros H. eapply in_skipn, in_firstn, H.
Qed.

Lemma corr_ok c : user_named c = true -> corr c = true -> ok c = true.
Proof.
  intros UN K. unfold ok. unfold corr in K. destruct (in_domain c) eqn:D; [|reflexivity].
  simpl. destruct (model_stack_spec c D) as [MS MP].
  pose proof (views_agree idf (model_stack c)) as V. cbv zeta in V. rewrite MP, map_id in V.
  destruct V as (Vf & Vh & Vl & Vfs & Vt & Vj & Vs & Vo & Vsf).
  (* every view the model predicts is a function of spec_frames *)
  unfold corr_strict in K. rewrite Vf, Vh, Vl, Vfs, Vt, Vj, Vs, Vo, !andb_true_iff in K.
  destruct K as [[[[[[[[[[Kframes Khead] Klen] Kfas] Ktrace] Kjson] Kslog] Korigin] Kfrom] Ksym2] Kdebug]. apply frames_eqb_eq in Kframes.
  rewrite !andb_true_iff. repeat split.
  - (* head is the site: nothing skipped, at least one frame kept *)
    unfold head_is_site.
    destruct (has_notrace (opts_of c)) eqn:NT; [reflexivity|].
    destruct (Z.eqb_spec (sum_skips (opts_of c)) 0) as [Z0|]; [|reflexivity]. simpl.
    rewrite <- Khead. apply f_equal. unfold spec_frames. rewrite NT, Z0, zfirstn_eq, zskipn_eq. symmetry.
    apply hd_firstn. pose proof (spec_depth_pos (opts_of c)). lia.
  - unfold arith_ok. apply Bool.eqb_prop in Kfrom. rewrite Kframes, (proj2 (frames_eqb_eq _ _) eq_refl), Kfrom.
    destruct (stack_from (model_stack c)) eqn:SF, (spec_frames c); try reflexivity;
      [discriminate (proj2 Vsf eq_refl)|discriminate (proj1 Vsf eq_refl)].
  - unfold views_core. now rewrite Kframes, Khead, Klen, Kfas, Ktrace, Kjson, Kslog, Korigin.
  - (* DebugStack: same symboliser; the frames all have names *)
    unfold view_debug. rewrite Kframes, <- Kdebug. apply f_equal. unfold model_debug.
    apply Nat.eqb_eq in Ksym2. rewrite MP in Ksym2.
    unfold user_named in UN. rewrite forallb_forall in UN.
    rewrite debugstack_agrees; unfold frames; rewrite MS; destruct (has_notrace (opts_of c)); simpl; try tauto.
    + rewrite MS in MP. now rewrite <- MP.
    + symmetry. apply combine_fst. now rewrite map_length.
    + intros [f o] Hpc. now apply in_combine_l, spec_frames_in_user, UN in Hpc.
Qed.

Lemma corr_implies_ok c :
  chain_ok (c_ctor c) = true -> user_named c = true -> corr c = true -> ok c = true.
Proof. intros _. apply corr_ok. Qed.

(* newStack's growing buffer (fix for F14) is one capture with a buffer of [depth] entries *)
(* pcs := make(min(depth, callersDepth)); n := Callers(skip, pcs);
   for n == len(pcs) && len(pcs) < depth { pcs = make(min(depth, 2*len(pcs))); n = Callers(skip, pcs) }
   [rest] is the goroutine stack below the skipped frames; Callers with a buffer of b entries returns zfirstn b rest. *)
Fixpoint grow {A} (fuel : nat) (b depth : Z) (rest : list A) : list A :=
  let r := zfirstn b rest in
  match fuel with
  | O => r
  | S f => if Z.eqb (Z.of_nat (List.length r)) b && Z.ltb b depth
           then grow f (Z.min depth (2 * b)) depth rest else r
  end.

Lemma zfirstn_length {A} n (l : list A) : 0 <= n ->
  Z.of_nat (List.length (zfirstn n l)) = Z.min n (Z.of_nat (List.length l)).
Proof. intros H. rewrite zfirstn_eq, firstn_length. lia. Qed.

Theorem grow_is_single_capture {A} (rest : list A) : forall fuel b depth,
  0 < b -> b <= depth -> (List.length rest < fuel + Z.to_nat b)%nat ->
  grow fuel b depth rest = zfirstn depth rest.
Proof.
  induction fuel as [|f IH]; intros b depth Hb Hd Hf; cbn [grow].
  - rewrite !zfirstn_eq, !firstn_all2 by lia. reflexivity.
  - rewrite zfirstn_length by lia.
    destruct (Z.eqb_spec (Z.min b (Z.of_nat (List.length rest))) b) as [E|E]; cbn [andb].
    + destruct (Z.ltb_spec b depth) as [L|L].
      * apply IH; lia.
      * replace depth with b by lia. reflexivity.
    + (* the buffer was not filled: the whole rest fits *)
      rewrite !zfirstn_eq, !firstn_all2 by lia. reflexivity.
Qed.

(* addSkip (fix for F15): saturation does not change what is captured *)
Definition max_int : Z := 9223372036854775807.
Definition add_skip (a b : Z) : Z := Z.min max_int (a + b).   (* for 0 <= a, b <= max_int *)

Theorem saturating_skip_is_exact_sum {A} (gs : list A) a b :
  Z.of_nat (List.length gs) <= max_int ->
  zskipn (add_skip a b) gs = zskipn (a + b) gs.
Proof.
  intros H. unfold add_skip. destruct (Z.min_spec max_int (a + b)) as [[L ->]|[L ->]]; [|reflexivity].
  rewrite !zskipn_eq, !skipn_all2 by lia. reflexivity.
Qed.
