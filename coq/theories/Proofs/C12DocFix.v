(* C12: the document-level fixpoint on nodes whose fields are JSON scalars bound to scalar keys. *)
From Coq Require Import Sorting.Permutation.
From Flocq Require Import IEEE754.BinarySingleNaN.
From Errdef Require Import Base.Str Base.SortFacts Base.Outcome Model.Core Model.Convert Model.Unmarshal Model.JsonVal Model.Redoc
  Proofs.UnmarshalFacts Proofs.SortFields Proofs.C13Proofs Proofs.C12Proofs Proofs.C11Proofs Proofs.C11Binding Proofs.ValueRoundtrip.
Local Open Scope Z_scope.

Section DocFix.
Variable reparse32 : Z -> Z.
Hypothesis reparse32_ok : forall b, is_finite (f32_of_bits b) = true ->
  is_finite (f64_of_bits (reparse32 b)) = true /\ f64_to_f32 (f64_of_bits (reparse32 b)) = f32_of_bits b.

(* the keys a decoded field of name n can bind to, in the order the code tries them *)
Definition candidates (c : ucfg) (d : udef) (n : string) : list ukey := (named n (ud_keys d) ++ named n (u_custom c))%list.

Definition scalar_key (k : ukey) : Prop := exists t, uk_ty k = FScalar t /\ sty_wf t = true.

(* a field of the domain: its value is what a JSON document decodes a scalar or null to, and at most
   one key of its name exists (on the definition or among the custom keys), of a scalar type *)
Definition simple_field (c : ucfg) (d : udef) (n : string) (v : dval) : Prop :=
  (v = DNil \/ json_native_scalar v = true) /\
  (List.length (candidates c d n) <= 1)%nat /\ Forall scalar_key (candidates c d n).

Lemma first_convert_one k v : first_convert [k] v =
  match try_convert (uk_ty k) v with
  | Ok (Some b) => Ok (Some (k, b)) | Ok None => Ok None | Fail cl => Fail cl | Panic w => Panic w end.
Proof. cbn. destruct (try_convert (uk_ty k) v) as [[b|]|cl|w]; reflexivity. Qed.

Lemma try_convert_scalar_result t v b : try_convert (FScalar t) v = Ok (Some b) ->
  (v = DNil \/ json_native_scalar v = true) -> json_native_scalar v = true /\ exists sv, bval_scalar b = Some sv.
Proof.
  intros H [->|Hn]; [discriminate H|]. split; [exact Hn|]. destruct v as [|vt sv| | |]; try discriminate.
  rewrite try_convert_scalar in H. destruct (N.eqb _ _); [injection H as <-; now exists sv|].
  destruct (scalar_conv _ _ _) as [w|]; [|discriminate]. injection H as <-. now exists w.
Qed.

Lemma placeholder_after_redecode t v b sv d' :
  json_native_scalar v = true -> try_convert (FScalar t) v = Ok (Some b) -> bval_scalar b = Some sv ->
  redecode reparse32 sv = Some d' -> is_placeholder v = false -> is_placeholder d' = false.
Proof.
  intros Hn Hb Hv Hd Hp. destruct v as [|vt x| | |]; try discriminate.
  destruct sv as [bb|s|z|fb|fb]; cbn [redecode] in Hd;
    try (destruct (is_finite _) in Hd; [|discriminate]); injection Hd as <-; try reflexivity.
  (* a string is handed out only for a string source: the document holds that very string *)
  destruct (native_binds t vt x b (SStr s) Hn Hb Hv) as [[<- _]|[y [_ E]]]; [|now apply conv_f64_shape in E].
  cbn [json_native_scalar] in Hn. apply andb_prop in Hn as [Hid _]. cbn [is_placeholder] in Hp.
  rewrite Hid in Hp. exact Hp.
Qed.

Lemma bind_field_fix c d k n v : simple_field c d n v ->
  match bind_field c d k n v with
  | FTyped key b =>
      exists sv, bval_scalar b = Some sv /\
      (not_max32 sv -> forall v', redecode reparse32 sv = Some v' ->
         exists b', bind_field c d k n v' = FTyped key b' /\ bval_scalar b' = Some sv)
  | FUnknown v0 => bind_field c d k n v0 = FUnknown v0
  | _ => True
  end.
Proof.
  intros [Hv [Hl Hk]]. change (candidates c d n) with (cands c d n) in Hl, Hk.
  rewrite (bind_field_cands c d k n v). destruct (is_placeholder v) eqn:Hp; [now rewrite bind_field_cands|].
  destruct (cands c d n) as [|key [|k2 r]] eqn:Ec; [| |apply le_S_n in Hl; inversion Hl].
  - cbn [first_convert]. destruct (u_strict c) eqn:Es; [exact I|]. now rewrite bind_field_cands, Hp, Ec, Es.
  - rewrite first_convert_one. inversion Hk as [|? ? [t [Ht Hwf]] _]; subst. rewrite Ht.
    destruct (try_convert (FScalar t) v) as [[b|]|cl|w] eqn:Et; try exact I.
    + destruct (try_convert_scalar_result t v b Et Hv) as [Hn [sv Hsv]].
      exists sv. split; [exact Hsv|]. intros H32 v' Hd.
      destruct (binding_fixpoint reparse32 reparse32_ok t v b sv Hwf Hn Et Hsv H32 v' Hd) as [b' [Eb' Hsv']].
      exists b'. split; [|exact Hsv'].
      now rewrite bind_field_cands, (placeholder_after_redecode t v b sv v' Hn Et Hsv Hd Hp), Ec, first_convert_one, Ht, Eb'.
    + destruct (u_strict c) eqn:Es; [exact I|]. now rewrite bind_field_cands, Hp, Ec, first_convert_one, Ht, Et, Es.
Qed.

Definition fres_ok (fr : fres) : Prop :=
  match fr with
  | FTyped _ b => match bval_scalar b with Some sv => not_max32 sv /\ redecode reparse32 sv <> None | None => False end
  | FUnknown _ => True
  | _ => False
  end.

Definition bindl (c : ucfg) (d : udef) (k : string) (l : list (string * dval)) : list (string * fres) :=
  map (fun nv => (fst nv, bind_field c d k (fst nv) (snd nv))) l.

Lemma bound_fields_bindl c d k fs : bound_fields c d k fs = bindl c d k (sort_fields fs).
Proof. reflexivity. Qed.

(* the document a restored error marshals to, decoded again: Model/Redoc.v (validated by the C12 run) *)
Local Notation typed_part := (Redoc.typed_part reparse32).
Local Notation refields := (Redoc.refields reparse32).
Local Notation redoc := (Redoc.redoc reparse32).

(* [l']: the fields [l] after Unmarshal, Marshal and decoding again; [tp]: the typed ones, as Marshal
   writes them.  The typed values may come back in another representation (BSame / BScalar) of the
   same scalar *)
Lemma fields_fix c d k (l : list (string * dval)) :
  (forall n v, In (n, v) l -> simple_field c d n v) ->
  Forall (fun nr => fres_ok (snd nr)) (bindl c d k l) ->
  exists l' tp, map fst l' = map fst l /\
    typed_part (flat_map typed_of (bindl c d k l)) = Some tp /\
    Permutation (tp ++ flat_map unknown_of_f (bindl c d k l)) l' /\
    typed_part (flat_map typed_of (bindl c d k l')) = Some tp /\
    flat_map unknown_of_f (bindl c d k l') = flat_map unknown_of_f (bindl c d k l) /\
    flat_map fails_of (bindl c d k l') = [].
Proof.
  induction l as [|[n v] r IH]; intros Hs Hok; [exists [], []; repeat split; constructor|].
  change (bindl c d k ((n, v) :: r)) with ((n, bind_field c d k n v) :: bindl c d k r) in *.
  inversion Hok as [|? ? Hok1 Hok2]; subst. cbn [snd] in Hok1.
  destruct (IH (fun n0 v0 H => Hs n0 v0 (or_intror H)) Hok2) as (l' & tp & Hn & T1 & P & T2 & U & F).
  pose proof (bind_field_fix c d k n v (Hs n v (or_introl eq_refl))) as Hf.
  destruct (bind_field c d k n v) as [key b|v0|f|w] eqn:Eb; cbn [fres_ok] in Hok1; try contradiction.
  - destruct Hf as [sv [Hsv Hf]]. rewrite Hsv in Hok1. destruct Hok1 as [H32 Hd].
    destruct (redecode reparse32 sv) as [v'|] eqn:Ed; [|now contradiction Hd].
    destruct (Hf H32 v' eq_refl) as [b' [Eb' Hsv']].
    destruct (bind_field_typed c d k n v key b Eb) as [Hkn _].
    exists ((n, v') :: l'), ((n, v') :: tp).
    change (bindl c d k ((n, v') :: l')) with ((n, bind_field c d k n v') :: bindl c d k l'). rewrite Eb'.
    cbn [map flat_map typed_of unknown_of_f fails_of fst snd app Redoc.typed_part].
    rewrite Hsv, Hsv', Ed, T1, T2, Hkn, Hn, U, F. repeat split. now constructor.
  - exists ((n, v0) :: l'), tp.
    change (bindl c d k ((n, v0) :: l')) with ((n, bind_field c d k n v0) :: bindl c d k l'). rewrite Hf.
    cbn [map flat_map typed_of unknown_of_f fails_of fst snd app]. rewrite T1, T2, Hn, U, F. repeat split.
    apply Permutation_sym, Permutation_cons_app, Permutation_sym, P.
Qed.

Lemma node_fields_fix c def k fs :
  NoDup (map fst fs) -> (forall n v, In (n, v) fs -> simple_field c def n v) ->
  Forall (fun nr => fres_ok (snd nr)) (bindl c def k (sort_fields fs)) ->
  exists l', sort_fields l' = l' /\
    refields (flat_map typed_of (bindl c def k (sort_fields fs))) (flat_map unknown_of_f (bindl c def k (sort_fields fs))) = Some l' /\
    flat_map fails_of (bindl c def k l') = [] /\
    refields (flat_map typed_of (bindl c def k l')) (flat_map unknown_of_f (bindl c def k l')) = Some l'.
Proof.
  intros Hnd Hsimple Hok. set (l := sort_fields fs) in *.
  destruct (fields_fix c def k l) as (l' & tp & Hnames & Etp & Ptp & Tp2 & Un2 & Fl2);
    [intros n v Hin; apply Hsimple, (sort_fields_in fs), Hin|exact Hok|].
  assert (Hsorted : sort_fields l' = l').
  { apply sort_fields_of_sorted, (SSorted_map_impl fst (fun a b => String.leb a b = true)); [auto|].
    rewrite Hnames. apply (SSorted_map_of fst _ name_le); [auto|apply sort_fields_sorted]. }
  exists l'. unfold Redoc.refields. rewrite Tp2, Un2, Etp. cbn [option_map].
  assert (E : sort_fields (tp ++ flat_map unknown_of_f (bindl c def k l)) = l').
  { rewrite <- Hsorted. apply sort_fields_perm_invariant; [exact Ptp|].
    apply (Permutation_NoDup (l := map fst l')); [apply Permutation_sym, Permutation_map, Ptp|].
    rewrite Hnames. apply (Permutation_NoDup (l := map fst fs)); [apply Permutation_sym, sort_fields_names_perm|exact Hnd]. }
  rewrite E. auto.
Qed.

Definition cfg_plain (c : ucfg) : Prop := u_default c = None \/ u_strict c = true.

Lemma resolve_plain c k d : cfg_plain c -> resolve_kind_u c k = UOk d -> resolve_kind_def (u_defs c) k = Some d.
Proof. intros Hc H. apply resolve_kind_u_ok in H as [H|[_ [Hd Hs]]]; [exact H|]. destruct Hc; congruence. Qed.

(* documents of the domain: at every node the field names are distinct, every field is simple for the
   resolved definition and is bound to a value that marshals (or kept unknown), and every cause is
   restored as an errdef error *)
Fixpoint ddom (c : ucfg) (x : dd) : Prop :=
  match x with
  | DD m k t fs st cs u =>
      NoDup (map fst fs) /\
      (forall def, resolve_kind_u c k = UOk def ->
         (forall n v, In (n, v) fs -> simple_field c def n v) /\
         Forall (fun nr => fres_ok (snd nr)) (bindl c def k (sort_fields fs))) /\
      (fix go (l : list (option dd)) : Prop :=
         match l with
         | [] => True
         | Some cd :: r => ddom c cd /\ (exists e, fst (both c cd) = UOk e) /\ go r
         | None :: _ => False
         end) cs
  end.

Lemma ddom_causes c m k t fs st cs u : ddom c (DD m k t fs st cs u) ->
  exists cds, cs = map Some cds /\ Forall (fun cd => ddom c cd /\ exists e, unmarshal c cd = UOk e) cds.
Proof.
  cbn [ddom]. intros (_ & _ & H). induction cs as [|[cd|] r IH].
  - exists []. split; [reflexivity|constructor].
  - destruct H as [H1 [H2 H3]]. destruct (IH H3) as [cds [-> F]]. exists (cd :: cds). split; [reflexivity|constructor; auto].
  - contradiction.
Qed.

Local Notation recauses := (fix go (l : list rcause) : option (list (option dd)) :=
  match l with
  | [] => Some []
  | RCErr e :: t => match redoc e, go t with Some x, Some xs => Some (Some x :: xs) | _, _ => None end
  | _ :: _ => None
  end).

Lemma causes_fix c cds :
  Forall (fun cd => exists e y e', unmarshal c cd = UOk e /\ redoc e = Some y /\ unmarshal c y = UOk e' /\ redoc e' = Some y) cds ->
  exists es ys es', causes_model c (map Some cds) = UOk (map RCErr es) /\ recauses (map RCErr es) = Some (map Some ys) /\
                    causes_model c (map Some ys) = UOk (map RCErr es') /\ recauses (map RCErr es') = Some (map Some ys).
Proof.
  unfold causes_model.
  induction 1 as [|cd r [e [y [e' [A [B [C D]]]]]] _ [es [ys [es' [A' [B' [C' D']]]]]]].
  - exists [], [], []. repeat split; reflexivity.
  - exists (e :: es), (y :: ys), (e' :: es'). cbn [map cause_model seq_causes].
    now rewrite (cause_of_err _ _ _ A), (cause_of_err _ _ _ C), A', C', B, D, B', D'.
Qed.

Theorem doc_fixpoint c : cfg_plain c -> forall x, ddom c x -> forall r, unmarshal c x = UOk r ->
  exists y r', redoc r = Some y /\ unmarshal c y = UOk r' /\ redoc r' = Some y.
Proof.
  intros Hc. induction x as [m k t fs st cs u IH] using dd_Forall_ind. intros D r Hr.
  destruct (ddom_causes _ _ _ _ _ _ _ _ D) as [cds [-> Fc]]. destruct D as [Hnd [Hf _]].
  apply unmarshal_ok_inv in Hr as (def & cs' & ty & un & Ek & Ec & Fty & ->).
  destruct (Hf def Ek) as [Hsimple Hok].
  destruct (causes_fix c cds) as [es [ys [es' [A [B [C D]]]]]].
  { rewrite Forall_map in IH. eapply Forall_impl; [|exact (Forall_and IH Fc)].
    intros cd [Hih [Hd [e He]]]. destruct (Hih Hd e He) as [y [e' [R1 [R2 R3]]]]. now exists e, y, e'. }
  rewrite A in Ec. injection Ec as <-.
  destruct (node_fields_fix c def k fs Hnd Hsimple Hok) as [l' [Hsorted [Hre [Hfl Hre']]]].
  destruct (collect_as_flat_map (bindl c def k (sort_fields fs))) as [Ety [Eun _]].
  destruct (collect_as_flat_map (bindl c def k l')) as [Ety' [Eun' Efl']].
  destruct (fields_collected c def k l') as (ty' & un' & fl' & Fty').
  rewrite bound_fields_bindl in Fty, Fty'. rewrite Hsorted in Fty'. rewrite Fty in Ety, Eun. rewrite Fty' in Ety', Eun', Efl'.
  unfold proj_typed, proj_unknown, proj_fails in *. cbn [fst snd] in Ety, Eun, Ety', Eun', Efl'. subst ty un ty' un' fl'.
  destruct (resolve_kind_def_some _ _ _ (resolve_plain c k def Hc Ek)) as [_ Hkk].
  exists (DD m (d_kind (ud_def def)) "" l' st (map Some ys) ""),
         (RErr def m (flat_map typed_of (bindl c def k l')) (flat_map unknown_of_f (bindl c def k l')) st (map RCErr es')).
  split; [|split].
  - cbn [Redoc.redoc]. now rewrite Hre, B.
  - apply unmarshal_ok_inv.
    exists def, (map RCErr es'), (flat_map typed_of (bindl c def k l')), (flat_map unknown_of_f (bindl c def k l')).
    rewrite Hkk, bound_fields_bindl, Hsorted, Fty', Hfl. auto.
  - cbn [Redoc.redoc]. now rewrite Hre', D.
Qed.
End DocFix.

Definition ex_kn := {| uk_key := {| k_id := 1; k_name := "n"; k_ty := 2 |}; uk_ty := FScalar {| s_id := 2; s_kind := KInt |} |}.
Definition ex_d := {| ud_def := define 1000 0 "k1" [ONoTrace]; ud_keys := [ex_kn] |}.
Definition ex_c := {| u_defs := [ex_d]; u_default := None; u_strict := false; u_custom := []; u_sentinels := [] |}.
Definition ex_f3 := DS ty_float64 (SF64 4613937818241073152).
Definition ex_s := DS ty_string (SStr "x").
Definition ex_inner := DD "inner" "k1" "" [("n", ex_f3)] [] [] "".
Definition ex_x := DD "top" "k1" "" [("z", ex_s); ("n", ex_f3)] [] [Some ex_inner] "".

Lemma ex_simple n v : In (n, v) [("z", ex_s); ("n", ex_f3)] -> simple_field ex_c ex_d n v.
Proof.
  intros [H|[H|[]]]; inversion H; subst; (split; [right; reflexivity|]).
  - split; [vm_compute; repeat constructor|]. vm_compute. constructor.
  - split; [vm_compute; repeat constructor|]. vm_compute. constructor; [|constructor]. exists {| s_id := 2; s_kind := KInt |}. split; reflexivity.
Qed.

Lemma ex_resolve def : resolve_kind_u ex_c "k1" = UOk def -> def = ex_d.
Proof. intros H. vm_compute in H. now inversion H. Qed.
