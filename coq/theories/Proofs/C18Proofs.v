(* C18: %+v shows the whole tree in order.  [Embeds ts s]: the tokens ts occur in s in this order without
   overlap.  First the oracle's greedy search accepts every embedding (after_app, embeds_in_order); then, bottom
   up along Model/Fmt.v, each piece of the output embeds its tokens of Check/C18.v (field, snippet, frame, stack,
   details, header, nodes by tree induction), which gives plus_v_shows; last the verbs without structure and
   the link to the check. *)
From Errdef Require Import Base.Str Model.Core Model.Prog Model.Tree0 Model.Fmt Check.Render Check.C18 Proofs.TreeFacts.
Local Open Scope string_scope.

Lemma prefix_rest_spec t : forall s r, prefix_rest t s = Some r <-> s = t ++ r.
Proof.
  induction t as [|a t IH]; intros s r; cbn.
  - split; [now intros [= ->]|now intros ->].
  - destruct s as [|b s]; [split; discriminate|]. destruct (Ascii.eqb_spec a b) as [->|N].
    + rewrite IH. split; [now intros ->|now intros [= ->]].
    + split; [discriminate|intros [= E _]; congruence].
Qed.

Definition suffix_of (r s : string) : Prop := exists q, s = q ++ r.

Lemma suffix_trans a b c : suffix_of a b -> suffix_of b c -> suffix_of a c.
Proof. intros [q1 ->] [q2 ->]. exists (q2 ++ q1). now rewrite app_assoc_s. Qed.

Lemma app_split q2 : forall q1 a b, q2 ++ b = q1 ++ a -> String.length q2 <= String.length q1 ->
  exists q', q1 = q2 ++ q' /\ b = q' ++ a.
Proof.
  induction q2 as [|x q2 IH]; intros q1 a b E L; cbn in *.
  - exists q1. split; [reflexivity|exact E].
  - destruct q1 as [|y q1]; cbn in *; [lia|]. injection E as <- E.
    destruct (IH q1 a b E) as [q' [A B]]; [lia|]. exists q'. split; [now rewrite A|exact B].
Qed.

(* greedy search finds an occurrence at least as early as any given one: what it leaves still ends with [r] *)
Lemma after_app p t r : exists q, after t (p ++ t ++ r) = Some (q ++ r).
Proof.
  induction p as [|a p IH]; cbn [append].
  - exists "". destruct (t ++ r) eqn:E; cbn; rewrite <- ?E; now rewrite (proj2 (prefix_rest_spec t _ r)).
  - cbn [after]. destruct (prefix_rest t (String a (p ++ t ++ r))) as [x|] eqn:E; [|exact IH].
    apply prefix_rest_spec in E.
    destruct (app_split t (String a (p ++ t)) r x) as (q & _ & ->); [| |now exists q].
    + cbn. now rewrite app_assoc_s.
    + cbn. rewrite length_app_s. lia.
Qed.

Inductive Embeds : list string -> string -> Prop :=
| E_nil s : Embeds [] s
| E_cons t ts p r : Embeds ts r -> Embeds (t :: ts) (p ++ t ++ r).

(* text before the embedding only moves the greedy matches to the left *)
Lemma embeds_in_order_from ts r : Embeds ts r -> forall q, in_order ts (q ++ r) = true.
Proof.
  induction 1 as [|t ts p r H IH]; intros q; [reflexivity|]. cbn.
  rewrite <- (app_assoc_s q p). destruct (after_app (q ++ p) t r) as [q' ->]. apply IH.
Qed.

Lemma embeds_in_order ts s : Embeds ts s -> in_order ts s = true.
Proof. intros H. exact (embeds_in_order_from ts s H ""). Qed.

Lemma embeds_cons t ts s r : s = t ++ r -> Embeds ts r -> Embeds (t :: ts) s.
Proof. intros -> H. exact (E_cons t ts "" r H). Qed.

Lemma embeds_prepend ts s q : Embeds ts s -> Embeds ts (q ++ s).
Proof. destruct 1 as [|t ts p r H]; [constructor|]. rewrite <- app_assoc_s. now constructor. Qed.

Lemma embeds_app ts1 ts2 s1 s2 : Embeds ts1 s1 -> Embeds ts2 s2 -> Embeds (ts1 ++ ts2)%list (s1 ++ s2).
Proof.
  induction 1 as [s|t ts p r H IH]; intros H2; cbn.
  - now apply embeds_prepend.
  - rewrite !app_assoc_s. constructor. now apply IH.
Qed.

Lemma embeds_append_right ts s q : Embeds ts s -> Embeds ts (s ++ q).
Proof. intros H. rewrite <- (app_nil_r ts). apply embeds_app; [exact H|constructor]. Qed.

Lemma embeds_self t : Embeds [t] t.
Proof. apply (embeds_cons t [] t ""); [now rewrite app_nil_r_s|constructor]. Qed.
Lemma embeds_suffix t p : Embeds [t] (p ++ t).
Proof. apply embeds_prepend, embeds_self. Qed.
Lemma embeds_nil_any s : Embeds [] s.
Proof. constructor. Qed.

Lemma embeds_flat_map {A} (f : A -> list string) (g : A -> string) l :
  (forall x, Embeds (f x) (g x)) -> Embeds (flat_map f l) (String.concat "" (map g l)).
Proof.
  intros H. induction l as [|x l IH]; [constructor|]. cbn [flat_map map]. rewrite concat_cons_s. now apply embeds_app.
Qed.

Lemma embeds_exact (l : list string) : Embeds l (String.concat "" l).
Proof. induction l as [|x r IH]; [constructor|]. apply (embeds_cons x r _ _ (concat_cons_s x r) IH). Qed.

Lemma concat_map_shift ind (ls : list string) :
  nl ++ String.concat "" (map (fun l => ind ++ "    " ++ l ++ nl) ls) =
  String.concat "" (map (fun l => nl ++ ind ++ "    " ++ l) ls) ++ nl.
Proof.
  induction ls as [|l r IH]; [reflexivity|]. cbn [map]. rewrite !concat_cons_s.
  rewrite !app_assoc_s. rewrite <- IH. reflexivity.
Qed.

Lemma embeds_field ind nv : Embeds (field_toks ind nv) (fmt_field ind nv).
Proof.
  unfold field_toks, fmt_field. cbv zeta. destruct (has_nl (fv_plus (snd nv))); [|apply embeds_self].
  eapply embeds_cons; [|apply embeds_append_right, embeds_exact].
  rewrite <- concat_map_shift, !app_assoc_s. reflexivity.
Qed.
Lemma has_nl_all s : has_nl s = negb (all_chars (fun c => negb (N.eqb (N_of_ascii c) 10)) s).
Proof. induction s as [|c s IH]; cbn; [reflexivity|]. now rewrite IH, negb_andb, negb_involutive. Qed.

Lemma has_nl_app a b : has_nl (a ++ b) = has_nl a || has_nl b.
Proof. now rewrite !has_nl_all, all_chars_app, negb_andb. Qed.

Lemma has_nl_dec_Z z : has_nl (dec_Z z) = false.
Proof.
  rewrite has_nl_all, all_chars_dec_Z; [reflexivity| |reflexivity].
  intros d H. rewrite N_ascii_embedding by lia. apply negb_true_iff, N.eqb_neq. lia.
Qed.
Lemma has_nl_spaces n : has_nl (String.concat "" (repeat " " n)) = false.
Proof. induction n as [|n IH]; [reflexivity|]. cbn [repeat]. rewrite concat_cons_s, has_nl_app, IH. reflexivity. Qed.
Lemma has_nl_pad w s : has_nl (pad_left w s) = has_nl s.
Proof. unfold pad_left. now rewrite has_nl_app, has_nl_spaces. Qed.

(* strings.Split on newline: a newline-free piece goes to the line being read *)
Lemma split_nl_acc_free x rest : has_nl x = false -> forall cur,
  split_nl_acc (x ++ rest) cur = split_nl_acc rest (cur ++ x).
Proof.
  induction x as [|c x IH]; intros H cur; cbn [append split_nl_acc]; [now rewrite app_nil_r_s|].
  cbn [has_nl] in H. apply orb_false_iff in H as [-> Hx]. now rewrite (IH Hx), app_assoc_s.
Qed.

Lemma split_nl_line x rest : has_nl x = false -> split_nl (x ++ nl ++ rest) = x :: split_nl rest.
Proof. intros H. unfold split_nl. now rewrite (split_nl_acc_free x _ H). Qed.
Lemma split_nl_last x : has_nl x = false -> split_nl x = [x].
Proof. intros H. unfold split_nl. rewrite <- (app_nil_r_s x) at 1. now rewrite (split_nl_acc_free x _ H). Qed.

Lemma split_join (ls : list string) : ls <> [] -> forallb (fun l => negb (has_nl l)) ls = true ->
  split_nl (join nl ls) = ls.
Proof.
  induction ls as [|x r IH]; intros Hne H; [congruence|].
  cbn [forallb] in H. apply andb_true_iff in H as [Hx Hr]. apply negb_true_iff in Hx.
  destruct r as [|y r]; [now apply split_nl_last|].
  change (join nl (x :: y :: r)) with (x ++ nl ++ join nl (y :: r)).
  rewrite split_nl_line by exact Hx. f_equal. apply IH; [discriminate|exact Hr].
Qed.

Definition rend (width : nat) (line : Z) (il : Z * string) : string :=
  (if Z.eqb (fst il) line then "> " else "  ") ++ pad_left width (dec_Z (fst il)) ++ ": " ++ snd il.

Lemma frame_source_rend w line : w_lines w <> [] ->
  frame_source w line =
  join nl (map (rend (String.length (dec_Z (w_start w + Z.of_nat (List.length (w_lines w)) - 1))) line)
               (combine (map (fun i => (w_start w + Z.of_nat i)%Z) (seq 0 (List.length (w_lines w)))) (w_lines w))).
Proof. unfold frame_source. destruct (w_lines w) as [|x r]; [congruence|]. reflexivity. Qed.

Lemma rend_nl_free width line il : has_nl (snd il) = false -> has_nl (rend width line il) = false.
Proof.
  intros H. unfold rend. rewrite !has_nl_app, has_nl_pad, has_nl_dec_Z, H.
  destruct (Z.eqb (fst il) line); reflexivity.
Qed.

Lemma rendered_nl_free width line (ils : list Z) ls :
  forallb (fun l => negb (has_nl l)) ls = true ->
  forallb (fun l => negb (has_nl l)) (map (rend width line) (combine ils ls)) = true.
Proof.
  rewrite !forallb_forall. intros H x Hx. apply in_map_iff in Hx as ([i l] & <- & Hin).
  apply in_combine_r, H, negb_true_iff in Hin. now rewrite rend_nl_free.
Qed.

Lemma rendered_in (a : Z) : forall (ls : list string) start k text, nth_error ls k = Some text ->
  In ((a + Z.of_nat (start + k))%Z, text) (combine (map (fun i => (a + Z.of_nat i)%Z) (seq start (List.length ls))) ls).
Proof.
  induction ls as [|x r IH]; intros start [|k] text H; try discriminate; cbn in *.
  - left. injection H as ->. now rewrite Nat.add_0_r.
  - right. rewrite Nat.add_succ_r. exact (IH (S start) k text H).
Qed.

Lemma embeds_in (g : string -> string) x l : In x l -> Embeds [g x] (String.concat "" (map g l)).
Proof.
  induction l as [|y l IH]; [intros []|intros [->|H]]; cbn [map]; rewrite concat_cons_s.
  - apply embeds_append_right, embeds_self.
  - now apply embeds_prepend, IH.
Qed.

Lemma join_nonempty c x r : exists rest, join nl (String c x :: r) = String c rest.
Proof. destruct r as [|y r]; [now exists x|]. exists (x ++ nl ++ join nl (y :: r)). reflexivity. Qed.

Lemma join_marked_nonempty (b : bool) y r : str_eqb (join nl (((if b then "> " else "  ") ++ y) :: r)) "" = false.
Proof. destruct b, r; reflexivity. Qed.

Lemma embeds_snippet ind w line t :
  forallb (fun l => negb (has_nl l)) (w_lines w) = true -> marked_line w line = Some t ->
  str_eqb (frame_source w line) "" = false /\
  Embeds [nl ++ ind ++ "    " ++ t]
    (String.concat "" (map (fun l => nl ++ ind ++ "    " ++ l) (split_nl (frame_source w line)))).
Proof.
  intros Hwf Hm. unfold marked_line in Hm. cbv zeta in Hm.
  destruct (Z.ltb_spec (line - w_start w) 0) as [|Hk]; [discriminate|].
  destruct (nth_error (w_lines w) (Z.to_nat (line - w_start w))) as [text|] eqn:En; [|discriminate].
  injection Hm as <-.
  assert (Hne : w_lines w <> []) by (intros E; rewrite E in En; now destruct (Z.to_nat _)).
  rewrite (frame_source_rend w line Hne).
  set (width := String.length (dec_Z (w_start w + Z.of_nat (List.length (w_lines w)) - 1))).
  apply (rendered_in (w_start w) _ 0), (in_map (rend width line)) in En.
  replace (w_start w + Z.of_nat (0 + Z.to_nat (line - w_start w)))%Z with line in En by lia.
  split.
  - destruct (w_lines w); [congruence|]. apply join_marked_nonempty.
  - rewrite split_join; [|intros E; now rewrite E in En|now apply rendered_nl_free].
    apply (embeds_in (fun l => nl ++ ind ++ "    " ++ l)) in En. unfold rend at 1 in En. cbn [fst snd] in En.
    now rewrite Z.eqb_refl in En.
Qed.

Lemma srcmap_wf_lookup m file line w : srcmap_wf m = true -> lookup_src m file line = Some w ->
  forallb (fun l => negb (has_nl l)) (w_lines w) = true.
Proof.
  unfold srcmap_wf, lookup_src. intros Hwf H.
  destruct (find _ m) as [e|] eqn:F; [|discriminate]. cbn in H. inversion H; subst.
  apply find_some in F as [Hin _]. rewrite forallb_forall in Hwf. exact (Hwf e Hin).
Qed.

Lemma embeds_frame m sl sd ind i f : srcmap_wf m = true ->
  Embeds (frame_toks m sl sd ind (i, f))
    (fmt_frame ind (if want_source sl sd i f
                    then option_map (fun w => frame_source w (fr_line f)) (lookup_src m (fr_file f) (fr_line f))
                    else None) f).
Proof.
  intros Hwf. unfold frame_toks, fmt_frame. cbn [fst snd]. destruct (str_eqb (fr_file f) ""); [constructor|].
  eapply embeds_cons; [|eapply embeds_cons; [reflexivity|]]; [now rewrite !app_assoc_s|].
  destruct (want_source sl sd i f); [|constructor].
  destruct (lookup_src m (fr_file f) (fr_line f)) as [w|] eqn:L; cbn [option_map]; [|constructor].
  destruct (marked_line w (fr_line f)) as [t|] eqn:M; [|constructor].
  destruct (embeds_snippet ind w (fr_line f) t (srcmap_wf_lookup m _ _ w Hwf L) M) as [-> He]. exact He.
Qed.

Lemma embeds_stack m ind e : srcmap_wf m = true ->
  Embeds (flat_map (frame_toks m (fst (src_settings e)) (snd (src_settings e)) ind)
            (combine (seq 0 (List.length (e_stack e))) (e_stack e)))
         (fmt_stack m ind e).
Proof.
  intros Hwf. unfold fmt_stack. destruct (src_settings e) as [sl sd].
  apply embeds_flat_map. intros [i f]. now apply embeds_frame.
Qed.

Lemma embeds_line ind t rest : Embeds [nl ++ ind ++ t] (nl ++ ind ++ t ++ rest).
Proof. eapply embeds_cons; [now rewrite !app_assoc_s|constructor]. Qed.

Lemma embeds_details m e indent hc : srcmap_wf m = true ->
  exists R, fmt_details m e indent hc = err_msg e ++ R /\ Embeds (detail_toks m e indent) R.
Proof.
  intros Hwf. unfold fmt_details, detail_toks. cbv zeta. eexists. split; [reflexivity|].
  apply embeds_prepend, embeds_app; [destruct (str_eqb (e_kind e) ""); [constructor|apply embeds_self]|].
  apply embeds_app.
  - destruct (e_fields_all e); [constructor|].
    eapply embeds_cons; [|apply embeds_flat_map, embeds_field]. now rewrite !app_assoc_s.
  - pose proof (embeds_stack m indent e Hwf) as H. destruct (e_stack e); [constructor|].
    eapply embeds_cons; [|exact H]. now rewrite !app_assoc_s.
Qed.

Lemma embeds_header indent n : Embeds (header_tok indent n) (causes_header indent n).
Proof.
  unfold header_tok, causes_header. destruct n as [|[|n]]; [constructor| |]; cbn [Nat.eqb].
  - exact (embeds_self (nl ++ indent ++ "causes: (1 error)")).
  - rewrite app_assoc_s. exact (embeds_self (nl ++ indent ++ "causes: (" ++ dec_nat (S (S n)) ++ " errors)")).
Qed.

Lemma embeds_nodes m ind (kids : list tree) :
  Forall (fun t => forall ind i, Embeds (node_toks m ind i t) (fmt_node m ind i t)) kids ->
  Embeds (nodes_toks m ind kids) (fmt_nodes m ind kids).
Proof.
  intros IH. unfold nodes_toks, fmt_nodes. generalize 0 as j. induction IH as [|k r Hk _ IHr]; intros j; [constructor|].
  cbn [List.concat]. rewrite concat_cons_s. apply embeds_app; [apply Hk|apply IHr].
Qed.

Lemma embeds_causes m hind ind (kids : list tree) :
  Forall (fun t => forall ind i, Embeds (node_toks m ind i t) (fmt_node m ind i t)) kids ->
  Embeds (header_tok hind (List.length kids) ++ nodes_toks m ind kids)%list
         (if Nat.eqb (List.length kids) 0 then ""
          else causes_header hind (List.length kids) ++ fmt_nodes m ind kids).
Proof.
  intros IH. destruct kids; [constructor|]. apply embeds_app; [apply embeds_header|now apply embeds_nodes].
Qed.

Theorem embeds_node m : srcmap_wf m = true -> forall t indent i, Embeds (node_toks m indent i t) (fmt_node m indent i t).
Proof.
  intros Hwf. induction t as [e kids IH] using tree_ind'. intros indent i. cbn [node_toks fmt_node].
  apply (embeds_causes m (indent ++ "    ") (indent ++ "    ")) in IH.
  (* the label line ends with the message; the rest of the text shows the rest of the tokens *)
  destruct (is_errdef_error e).
  - destruct (embeds_details m e (indent ++ "    ") (negb (Nat.eqb (List.length kids) 0)) Hwf) as (R & -> & HR).
    eapply embeds_cons; [rewrite !app_assoc_s; reflexivity|]. now apply embeds_app.
  - eapply embeds_cons; [rewrite !app_assoc_s; reflexivity|]. now apply embeds_prepend.
Qed.

Theorem plus_v_shows m e : srcmap_wf m = true ->
  (match e_def e with Some d => d_fmt d | None => None end) = None ->
  exists R, format_error m "+v" e = err_msg e ++ R /\ Embeds (plus_toks m e) R.
Proof.
  intros Hwf Hf. unfold format_error. rewrite Hf.
  destruct (embeds_details m e "" (negb (Nat.eqb (List.length (unwrap_tree e)) 0)) Hwf) as (R & -> & HR).
  eexists. split; [apply app_assoc_s|].
  apply embeds_app; [exact HR|]. apply embeds_causes, Forall_forall. intros t _. now apply embeds_node.
Qed.

Theorem shows_after_msg_complete msg toks R : Embeds toks R -> shows_after_msg msg toks (msg ++ R) = true.
Proof. intros H. unfold shows_after_msg. rewrite (proj2 (prefix_rest_spec msg _ R) eq_refl). now apply embeds_in_order. Qed.

Theorem plus_v_complete_in_order m e : srcmap_wf m = true ->
  (match e_def e with Some d => d_fmt d | None => None end) = None ->
  shows_after_msg (err_msg e) (plus_toks m e) (format_error m "+v" e) = true.
Proof.
  intros Hwf Hf. destruct (plus_v_shows m e Hwf Hf) as [R [-> HR]]. now apply shows_after_msg_complete.
Qed.

Theorem plain_verbs m e :
  (match e_def e with Some d => d_fmt d | None => None end) = None ->
  format_error m "s" e = err_msg e /\ format_error m "v" e = err_msg e /\ format_error m "q" e = go_quote (err_msg e).
Proof. intros H. unfold format_error. rewrite H. repeat split; reflexivity. Qed.

Theorem formatter_replaces m e id verb :
  (match e_def e with Some d => d_fmt d | None => None end) = Some id ->
  format_error m verb e = custom_fmt id (match verb with "+v" => "v" | x => x end) (err_msg e).
Proof. intros H. unfold format_error. now rewrite H. Qed.

(* nested nodes are rendered by formatErrorDetails: whether their definition carries a
   Formatter does not matter *)
Definition strip_fmt_def (d : defn) : defn :=
  {| d_addr := d_addr d; d_root := d_root d; d_org := d_org d; d_kind := d_kind d; d_fields := d_fields d;
     d_notrace := d_notrace d; d_skip := d_skip d; d_depth := d_depth d;
     d_srclines := d_srclines d; d_srcdepth := d_srcdepth d;
     d_fmt := None; d_json := d_json d; d_log := d_log d |}.
Definition strip_fmt (e : err) : err :=
  match e with
  | EDef a d m c j s => EDef a (strip_fmt_def d) m c j s
  | ERest a d m rf s cs => ERest a (strip_fmt_def d) m rf s cs
  | _ => e
  end.

Theorem nested_formatter_not_invoked m indent i e kids :
  fmt_node m indent i (T e kids) = fmt_node m indent i (T (strip_fmt e) kids).
Proof. destruct e; reflexivity. Qed.

Theorem no_snippet_when_disabled sl sd i f :
  (sl <= 0)%Z \/ sd = 0%Z \/ (0 < sd /\ sd <= Z.of_nat i)%Z -> want_source sl sd i f = false.
Proof.
  unfold want_source. intros [H|[H|[H1 H2]]].
  - destruct (Z.ltb_spec 0 sl); [lia|reflexivity].
  - subst. cbn. now rewrite !andb_false_r.
  - destruct (Z.ltb 0 sl); [|reflexivity]. destruct (negb _); [|reflexivity]. cbn.
    destruct (Z.eqb_spec sd (-1)); [lia|]. destruct (Z.ltb_spec (Z.of_nat i) sd); [lia|]. now rewrite andb_false_r.
Qed.

Theorem frame_without_source indent f :
  fmt_frame indent None f =
  if str_eqb (fr_file f) "" then ""
  else nl ++ indent ++ "  " ++ fr_func f ++ nl ++ indent ++ "    " ++ fr_file f ++ ":" ++ dec_Z (fr_line f) ++ "".
Proof. reflexivity. Qed.

(* ok1 of Check/C18.v without its snippet-count clause *)
Definition ok1_main (s : st) (given : list rlit) (m : srcmap) (o : obs1) : bool :=
  match subject_err s given (o_subject o) with
  | Some e =>
      match (match e_def e with Some d => d_fmt d | None => None end) with
      | Some id =>
          str_eqb (o_s o) (custom_fmt id "s" (err_msg e)) && str_eqb (o_v o) (custom_fmt id "v" (err_msg e)) &&
          str_eqb (o_q o) (custom_fmt id "q" (err_msg e)) && str_eqb (o_plus o) (custom_fmt id "v" (err_msg e))
      | None =>
          str_eqb (o_s o) (err_msg e) && str_eqb (o_v o) (err_msg e) && str_eqb (o_q o) (go_quote (err_msg e)) &&
          shows_after_msg (err_msg e) (plus_toks m e) (o_plus o)
      end
  | None => false
  end.

Theorem corr_implies_ok_main s given m o : srcmap_wf m = true ->
  corr1 s given m o = true -> ok1_main s given m o = true.
Proof.
  unfold corr1, ok1_main. intros Hwf H. destruct (subject_err s given (o_subject o)) as [e|] eqn:E; [|discriminate].
  destruct (match e_def e with Some d => d_fmt d | None => None end) as [id|] eqn:F.
  - unfold format_error in H. now rewrite F in H.
  - apply andb_true_iff in H as [H H4]. apply str_eqb_eq in H4.
    rewrite H4, plus_v_complete_in_order, andb_true_r by auto. unfold format_error in H. now rewrite F in H.
Qed.
