(* JSON member names and omission flags of Model/Json.v against the struct tags srcgen reads from
   jsonErrorData, jsonCauseData and Frame (Gen/Consts.v, regenerated on every run). *)
From Errdef Require Import Base.Str Base.Outcome Model.Core Model.Tree0 Model.Json.
From Errdef Require Gen.Consts.

(* a tag as Gen/Consts.v lists it: (Go field, JSON name, omitempty, omitzero) *)
Definition tag_json_name (t : string * string * bool * bool) : string := snd (fst (fst t)).
Definition tag_omitempty (t : string * string * bool * bool) : bool := snd (fst t).
Definition tag_names (tags : list (string * string * bool * bool)) : list string := map tag_json_name tags.

Fixpoint subseqb (l m : list string) : bool :=
  match l, m with
  | [], _ => true
  | _ :: _, [] => false
  | x :: l', y :: m' => if str_eqb x y then subseqb l' m' else subseqb l m'
  end.
Definition members (j : json) : list string := match j with JObj ms => map fst ms | _ => [] end.
Definition required (tags : list (string * string * bool * bool)) : list string :=
  map tag_json_name (filter (fun t => negb (tag_omitempty t)) tags).

Lemma errdef_members_follow_tags e kids doc :
  is_errdef_error e = true -> (match e_def e with Some d => d_json d | None => None end) = None ->
  marshal_tree (T e kids) = Ok doc ->
  subseqb (members doc) (tag_names Gen.Consts.jsonErrorData_tags) = true /\
  forallb (fun n => existsb (str_eqb n) (members doc)) (required Gen.Consts.jsonErrorData_tags) = true.
Proof.
  intros He Hc. cbn [marshal_tree]. rewrite He, Hc.
  destruct (match e_fields_all e with [] => Ok None | _ => _ end) as [fj|c|w]; try discriminate.
  destruct (seq_out _) as [cs|c|w]; try discriminate.
  intros H. inversion H; subst doc. clear H.
  destruct (str_eqb (e_kind e) ""), fj, (e_stack e), cs; split; reflexivity.
Qed.

Lemma foreign_members_follow_tags e kids doc :
  is_errdef_error e = false -> marshal_tree (T e kids) = Ok doc ->
  subseqb (members doc) (tag_names Gen.Consts.jsonCauseData_tags) = true /\
  forallb (fun n => existsb (str_eqb n) (members doc)) (required Gen.Consts.jsonCauseData_tags) = true.
Proof.
  intros He. cbn [marshal_tree]. rewrite He.
  destruct (seq_out _) as [cs|c|w]; try discriminate.
  intros H. inversion H; subst doc. destruct cs; split; reflexivity.
Qed.

Lemma frame_members_are_tags f : members (frame_json f) = tag_names Gen.Consts.Frame_tags.
Proof. reflexivity. Qed.
