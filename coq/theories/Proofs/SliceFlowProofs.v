(* Soundness of the slice-ownership analysis of Model/SliceFlow.v. *)
From Coq Require Import List Arith Bool String Lia.
Import ListNotations.
From Errdef Require Import Model.SliceFlow.

Definition fresh_or_empty (n0 : nat) (s : slice) : Prop := n0 <= sl_arr s \/ sl_cap s = 0.

Record inv (h0 : heap) (ow : string -> bool) (st : state) : Prop := {
  inv_prefix : firstn (List.length h0) (st_h st) = h0;
  inv_env : forall x, ow x = true -> fresh_or_empty (List.length h0) (st_env st x);
  inv_stored : forall s, In s (st_stored st) -> fresh_or_empty (List.length h0) s
}.

Lemma update_length {A} (l : list A) i x : List.length (update l i x) = List.length l.
Proof. revert i; induction l as [|y r IH]; intros [|j]; cbn; auto. Qed.

Lemma firstn_update_ge {A} (l : list A) n i x : n <= i -> firstn n (update l i x) = firstn n l.
Proof.
  revert n i; induction l as [|y r IH]; intros n i H; [destruct i; reflexivity|].
  destruct i as [|j]; [replace n with 0 by lia; reflexivity|].
  destruct n as [|m]; [reflexivity|]. cbn. f_equal. apply IH. lia.
Qed.

Lemma firstn_app_le {A} (l r : list A) n : n <= List.length l -> firstn n (l ++ r) = firstn n l.
Proof. intros H. rewrite firstn_app. replace (n - List.length l) with 0 by lia. cbn. apply app_nil_r. Qed.

Lemma prefix_len h0 (h : heap) : firstn (List.length h0) h = h0 -> List.length h0 <= List.length h.
Proof. intros H. rewrite <- H at 1. rewrite firstn_length. lia. Qed.

Lemma append_sound h0 h s xs extra h' s' :
  firstn (List.length h0) h = h0 -> fresh_or_empty (List.length h0) s ->
  go_append h s xs extra = (h', s') ->
  firstn (List.length h0) h' = h0 /\ fresh_or_empty (List.length h0) s'.
Proof.
  intros Hp Hs E. pose proof (prefix_len h0 h Hp) as Hl. unfold go_append in E.
  destruct xs as [|x xs]; [inversion E; subst; auto|].
  destruct (sl_len s + List.length (x :: xs) <=? sl_cap s) eqn:Q; inversion E; subst; clear E.
  - apply Nat.leb_le in Q. cbn [List.length] in Q.
    destruct Hs as [Hs|Hs]; [|lia].
    split; [rewrite firstn_update_ge by exact Hs; exact Hp|left; exact Hs].
  - split; [rewrite firstn_app_le by exact Hl; exact Hp|left; cbn; exact Hl].
Qed.

Lemma write_sound h0 h s rel xs :
  firstn (List.length h0) h = h0 -> fresh_or_empty (List.length h0) s ->
  firstn (List.length h0) (go_write h s rel xs) = h0.
Proof.
  intros Hp Hs. unfold go_write.
  destruct ((rel + List.length xs <=? sl_cap s) && negb (List.length xs =? 0)) eqn:Q; [|exact Hp].
  apply andb_prop in Q. destruct Q as [Q1 Q2]. apply Nat.leb_le in Q1.
  apply negb_true_iff in Q2. apply Nat.eqb_neq in Q2.
  destruct Hs as [Hs|Hs]; [|lia]. rewrite firstn_update_ge by exact Hs. exact Hp.
Qed.

Section Sound.
Variables params retained : string -> slice.
Variable ops : list sop.
Variable ow : string -> bool.
Hypothesis Hstable : stable ops ow = true.
Hypothesis Hsafe : forallb (op_safe ow) ops = true.

Lemma eval_sound h0 st c e h1 s :
  inv h0 ow st -> eval params retained st c e = (h1, s) ->
  firstn (List.length h0) h1 = h0 /\ (owned_sx ow e = true -> fresh_or_empty (List.length h0) s).
Proof.
  intros I E. pose proof (prefix_len h0 _ (inv_prefix _ _ _ I)) as Hl.
  destruct e; cbn in E |- *; inversion E; subst; clear E; (split; [try apply I|intros Ho; try discriminate]).
  - apply I, Ho.
  - now right.
  - rewrite firstn_app_le by exact Hl. apply I.
  - left. exact Hl.
Qed.

Lemma stable_assign o x : In o ops -> In x (assigned o) -> ow x = true -> demotes ow o x = false.
Proof.
  intros Hin Hx Hox. unfold stable in Hstable. rewrite forallb_forall in Hstable.
  specialize (Hstable o Hin). rewrite forallb_forall in Hstable. specialize (Hstable x Hx).
  rewrite Hox in Hstable. cbn in Hstable. now apply negb_true_iff in Hstable.
Qed.

Lemma exec1_sound h0 o c st : In o ops -> inv h0 ow st -> inv h0 ow (exec1 params retained o c st).
Proof.
  intros Hin I. pose proof Hsafe as Hs. rewrite forallb_forall in Hs. specialize (Hs o Hin).
  destruct o as [x e|x b|e|p e]; cbn [exec1 op_safe] in *.
  - destruct (eval params retained st c e) as [h1 s] eqn:E.
    destruct ((c_a c <=? c_b c) && (c_b c <=? c_c c) && (c_c c <=? sl_cap s)) eqn:Q; [|exact I].
    apply andb_prop in Q. destruct Q as [Q Q3]. apply Nat.leb_le in Q3.
    constructor; cbn.
    + eapply eval_sound; eauto.
    + intros y Hy. unfold set_env. destruct (String.eqb y x) eqn:Eyx; [|apply I; exact Hy].
      apply String.eqb_eq in Eyx. subst y.
      pose proof (stable_assign (PAssign x e) x Hin (or_introl eq_refl) Hy) as D. cbn in D.
      rewrite String.eqb_refl in D. cbn in D. apply negb_false_iff in D.
      destruct (proj2 (eval_sound h0 st c e h1 s I E) D) as [F|F]; [left; exact F|right; cbn; lia].
    + apply I.
  - destruct (eval params retained st c b) as [h1 s] eqn:E.
    destruct (go_append h1 s (c_xs c) (c_extra c)) as [h2 s'] eqn:A.
    destruct (eval_sound h0 st c b h1 s I E) as [P1 F1]. specialize (F1 Hs).
    destruct (append_sound h0 h1 s _ _ h2 s' P1 F1 A) as [P2 F2].
    constructor; cbn; [exact P2| |apply I].
    intros y Hy. unfold set_env. destruct (String.eqb y x); [exact F2|apply I; exact Hy].
  - destruct (eval params retained st c e) as [h1 s] eqn:E.
    destruct (eval_sound h0 st c e h1 s I E) as [P1 F1]. specialize (F1 Hs).
    constructor; cbn; [apply write_sound; assumption|apply I|apply I].
  - destruct (eval params retained st c e) as [h1 s] eqn:E.
    destruct (eval_sound h0 st c e h1 s I E) as [P1 F1]. specialize (F1 Hs).
    constructor; cbn; [exact P1|apply I|].
    intros s0 [<-|H]; [exact F1|apply I; exact H].
Qed.

Lemma run_sound h0 sched st : inv h0 ow st -> inv h0 ow (run params retained ops sched st).
Proof.
  revert st. induction sched as [|c r IH]; intros st I; [exact I|].
  cbn. apply IH. unfold step. destruct (nth_error ops (c_op c)) as [o|] eqn:E; [|exact I].
  apply exec1_sound; [eapply nth_error_In; eauto|exact I].
Qed.
End Sound.

Theorem accepts_sound ops : accepts ops = true ->
  forall (h0 : heap) (params retained : string -> slice) (sched : list choice),
  let st := run params retained ops sched (init_state h0) in
  firstn (List.length h0) (st_h st) = h0 /\
  forall s, In s (st_stored st) -> fresh_or_empty (List.length h0) s.
Proof.
  intros H h0 params retained sched. unfold accepts in H. apply andb_prop in H. destruct H as [H1 H2].
  assert (I0 : inv h0 (owned_vars ops) (init_state h0)).
  { constructor; cbn; [apply firstn_all|intros; right; reflexivity|intros s []]. }
  pose proof (run_sound params retained ops (owned_vars ops) H1 H2 h0 sched _ I0) as I.
  split; apply I.
Qed.
