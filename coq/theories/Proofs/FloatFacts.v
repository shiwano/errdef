(* Facts about Flocq's binary formats that mention nothing of the model: integers as floats,
   round-to-nearest-even on scaled integers, integers in a format. *)
From Coq Require Import ZArith Reals Lia Lra Bool.
From Flocq Require Import Core IEEE754.BinarySingleNaN.
Local Open Scope Z_scope.

Lemma bpow_IZR e : 0 <= e -> bpow radix2 e = IZR (2 ^ e).
Proof. intros H. rewrite <- (IZR_Zpower radix2 e H). reflexivity. Qed.

Lemma exact_div a P q : 0 < P -> (a mod P = 0 /\ a / P = q <-> a = q * P).
Proof.
  intros HP. split.
  - intros [H <-]. rewrite (Z.div_mod a P) at 1 by lia. lia.
  - intros ->. rewrite Z.mod_mul, Z.div_mul by lia. lia.
Qed.

Lemma F2R_int z : F2R (Float radix2 z 0) = IZR z.
Proof. unfold F2R. cbn. ring. Qed.

Lemma F2R_B2R {p e} (s : bool) m ex (H : SpecFloat.bounded p e m ex = true) :
  F2R (Float radix2 (if s then Z.neg m else Z.pos m) ex) = B2R (B754_finite s m ex H : binary_float p e).
Proof. destruct s; reflexivity. Qed.

Lemma bounded_facts prec emax m ex : 0 < prec ->
  SpecFloat.bounded prec emax m ex = true ->
  3 - emax - prec <= ex /\ Zpos m < 2 ^ prec /\ ex <= emax - prec /\
  (Zpos m < 2 ^ (prec - 1) -> ex = 3 - emax - prec).
Proof.
  intros Hp H. apply andb_prop in H as [H1 H2].
  apply Zle_bool_imp_le in H2.
  unfold SpecFloat.canonical_mantissa in H1. apply Zeq_bool_eq in H1.
  rewrite Zpos_digits2_pos in H1. unfold SpecFloat.fexp, SpecFloat.emin in H1.
  destruct (Zdigits_correct radix2 (Zpos m)) as [D1 D2].
  set (d := Zdigits radix2 (Zpos m)) in *.
  change (Z.pow (radix_val radix2)) with (Z.pow 2) in *. cbn [Z.abs] in *.
  assert (Hd : d <= prec) by lia.
  repeat split; try lia.
  - apply Z.lt_le_trans with (1 := D2). apply Z.pow_le_mono_r; lia.
  - intros Hs.
    assert (d - 1 < prec - 1).
    { apply (Z.pow_lt_mono_r_iff 2); try lia. }
    lia.
Qed.

(* binary_normalize rounds to nearest even when a format number below the overflow threshold
   bounds the magnitude *)
Lemma normalize_NE prec emax Hp Hm m e s B :
  generic_format radix2 (FLT_exp (3 - emax - prec) prec) B -> (B < bpow radix2 emax)%R ->
  (Rabs (F2R (Float radix2 m e)) <= B)%R ->
  let g := binary_normalize prec emax Hp Hm mode_NE m e s in
  is_finite g = true /\ B2R g = round radix2 (FLT_exp (3 - emax - prec) prec) ZnearestE (F2R (Float radix2 m e)) /\
  Bsign g = match Rcompare (F2R (Float radix2 m e)) 0 with Lt => true | Gt => false | Eq => s end.
Proof.
  intros HB Hlt Hx. pose proof (binary_normalize_correct prec emax Hp Hm mode_NE m e s) as H. cbv zeta in H.
  rewrite Rlt_bool_true in H; [destruct H as (A & B' & C); exact (conj B' (conj A C))|].
  apply Rle_lt_trans with (2 := Hlt). apply abs_round_le_generic; auto with typeclass_instances.
  apply FLT_exp_valid. exact Hp.
Qed.

Lemma int_to_float_correct prec emax Hp Hm z : 64 < emax -> Z.abs z <= 2 ^ 64 ->
  let g := binary_normalize prec emax Hp Hm mode_NE z 0 false in
  is_finite g = true /\ B2R g = round radix2 (FLT_exp (3 - emax - prec) prec) ZnearestE (IZR z) /\
  Bsign g = (z <? 0).
Proof.
  intros He Hz. pose proof Hp as Hp'. unfold Prec_gt_0 in Hp'.
  destruct (normalize_NE prec emax Hp Hm z 0 false (bpow radix2 64)) as (A & B & C).
  - apply generic_format_FLT_bpow; [exact Hp|lia].
  - apply bpow_lt. exact He.
  - rewrite F2R_int, <- abs_IZR, bpow_IZR by lia. now apply IZR_le.
  - rewrite F2R_int in B, C. change 0%R with (IZR 0) in C. rewrite Rcompare_IZR in C.
    repeat split; [exact A|exact B|]. rewrite C. unfold Z.ltb. destruct (z ?= 0); reflexivity.
Qed.

Section Nearest.
Variables prec emin : Z.
Hypothesis Hprec : 1 < prec.
Local Instance flt_prec_gt_0 : Prec_gt_0 prec.
Proof. unfold Prec_gt_0. lia. Qed.
Notation fexp := (FLT_exp emin prec).
Notation format := (generic_format radix2 fexp).
Local Instance flt_exists_NE : Exists_NE radix2 fexp.
Proof. apply exists_NE_FLT. right. exact Hprec. Qed.

Lemma scale_int n k E : E <= k -> (IZR (n * 2 ^ (k - E)) * bpow radix2 E = IZR n * bpow radix2 k)%R.
Proof.
  intros H. rewrite mult_IZR, <- bpow_IZR by lia. rewrite Rmult_assoc, <- bpow_plus. f_equal. f_equal. lia.
Qed.

Lemma format_nat n k : 0 <= n <= 2 ^ prec -> emin <= k -> format (IZR n * bpow radix2 k).
Proof.
  intros Hn Hk. destruct (Z.eq_dec n (2 ^ prec)) as [->|Hne].
  - rewrite <- bpow_IZR by lia. rewrite <- bpow_plus. apply generic_format_FLT_bpow; [exact flt_prec_gt_0|lia].
  - apply generic_format_FLT. exists (Float radix2 n k).
    + reflexivity.
    + cbn [Fnum]. change (Z.pow (radix_val radix2)) with (Z.pow 2). lia.
    + exact Hk.
Qed.

Lemma nearest_scaled x r b X R G : (0 < b)%R -> x = (IZR X * b)%R -> r = (IZR R * b)%R ->
  Rnd_N_pt format x r -> format (IZR G * b) ->
  Z.abs (R - X) <= Z.abs (G - X) /\
  (Z.abs (R - X) = Z.abs (G - X) -> Rabs (IZR G * b - x) = Rabs (r - x)).
Proof.
  intros Hb -> -> [_ HN] Hg. specialize (HN _ Hg).
  assert (A : forall N, Rabs (IZR N * b - IZR X * b) = (IZR (Z.abs (N - X)) * b)%R).
  { intros N. rewrite <- Rmult_minus_distr_r, <- minus_IZR, Rabs_mult, <- abs_IZR, (Rabs_pos_eq b) by lra. reflexivity. }
  rewrite !A in *. split.
  - apply le_IZR. now apply Rmult_le_reg_r with (1 := Hb).
  - now intros ->.
Qed.

Lemma tie_even x (mm : positive) ee :
  let r := F2R (Float radix2 (Zpos mm) ee) in
  canonical radix2 fexp (Float radix2 (Zpos mm) ee) ->
  r = round radix2 fexp ZnearestE x -> forall g, format g -> g <> r ->
  Rabs (g - x) = Rabs (r - x) -> Z.even (Zpos mm) = true.
Proof.
  intros r Hc Hr g Hg Hne Htie.
  pose proof (round_NE_pt radix2 fexp x) as [HN HP]. rewrite <- Hr in HN, HP.
  destruct HP as [[f [Hf [Hcf Hev]]]|Hu].
  - assert (f = Float radix2 (Zpos mm) ee) as ->.
    { apply (canonical_unique radix2 fexp); try assumption. symmetry. exact Hf. }
    exact Hev.
  - exfalso. apply Hne. apply Hu. split; [exact Hg|].
    intros g' Hg'. rewrite Htie. apply (proj2 HN g' Hg').
Qed.

Hypothesis Hemin : emin <= 0.

Lemma big_format_int r : format r -> (bpow radix2 prec <= Rabs r)%R -> exists N, r = IZR N.
Proof.
  intros Hf Hb. unfold generic_format in Hf.
  set (M := Ztrunc (scaled_mantissa radix2 fexp r)) in *.
  assert (Hc : 0 <= cexp radix2 fexp r).
  { unfold cexp, FLT_exp.
    assert (prec + 1 <= mag radix2 r) by (apply mag_ge_bpow; replace (prec + 1 - 1) with prec by lia; exact Hb).
    lia. }
  exists (M * 2 ^ cexp radix2 fexp r). rewrite Hf at 1. unfold F2R. cbn [Fnum Fexp].
  rewrite mult_IZR, bpow_IZR by exact Hc. reflexivity.
Qed.

Lemma small_int_format z : Z.abs z <= 2 ^ prec -> format (IZR z).
Proof.
  intros H. apply generic_format_abs_inv. rewrite <- abs_IZR, <- (Rmult_1_r (IZR _)).
  apply (format_nat (Z.abs z) 0); lia.
Qed.

Lemma round_int z : exists N, round radix2 fexp ZnearestE (IZR z) = IZR N.
Proof.
  destruct (Z_le_gt_dec (Z.abs z) (2 ^ prec)) as [Hs|Hb].
  - exists z. apply round_generic; auto with typeclass_instances. now apply small_int_format.
  - apply big_format_int.
    + apply generic_format_round; auto with typeclass_instances.
    + apply abs_round_ge_generic; auto with typeclass_instances.
      * apply generic_format_FLT_bpow; [exact flt_prec_gt_0|lia].
      * rewrite <- abs_IZR, bpow_IZR by lia. apply IZR_le. lia.
Qed.
End Nearest.
