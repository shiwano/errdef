(* C07 - every renderer terminates on every cause graph.
   Statements only; proofs are in Proofs/C07Proofs.v (and Proofs/C06Proofs.v for the tree).
   Model: Model/Render07.v over the cause graphs of Model/Tree.v.
   - Error(), %s %v %q, %+v, the slog value, Node.LogValue and DebugStack only follow the pruned
     tree that UnwrapTree returns (or do not look at the causes at all): structural recursions.
   - json.Marshal re-enters json.Marshal(err) at every errdef node with a FRESH visited map: fuel.
     Guard of the partial theorem: [edge_ranked g rank] - a rank on nodes that never increases
     along a cause edge and strictly decreases along every edge leaving an errdef node, i.e. no
     cycle of the graph passes through an errdef node.  Refuted without it (K1).
   - %#v hands the raw struct to fmt, which prints map-kinded causes inline: fuel.  Guard
     [inline_ranked]: no cycle among the map-kinded nodes.  Refuted without it (K7).
   - %+v prints every field value with fmt's %+v: guard [a_cycf = []] (no field value that
     contains itself).  Refuted without it (K8).
   - the source-snippet reader with its process-wide memo is a state machine over a file oracle.
   Partial by nature: a fatal stack overflow is a runtime event; the tie to the real process is
   the correspondence run (child processes), see harness/cmd/vh/c07.go. *)
From Errdef Require Proofs.C07ValueCycle.
From Errdef Require Import Base.Str Base.Outcome Model.Tree Spec.Unfold Check.C06 Proofs.C06Proofs
  Model.Render07 Check.C07 Proofs.C07Proofs.

(* restated from Properties/C07tree.v: under C06's guard G the tree is built within the explicit
   fuel (|g|+1)^2, for cyclic graphs too *)
Theorem C07_tree_build_total : forall g recv, G g -> recv < List.length g ->
  forall fuel, fuel_bound g <= fuel -> exists ts, build_cause_tree fuel g recv = Some ts.
Proof. exact terminates. Qed.
Print Assumptions C07_tree_build_total.

(* Every tree renderer is then a total function of that finite tree: it returns, %+v and
   Node.LogValue visit every node occurrence of the tree exactly once, in pre-order with its
   depth (preorder_all, the sequence Walk yields - C06_walk_preorder), the others do not look at
   the causes.  Guard: no field value contains itself (fmt would not return, K8). *)
Theorem C07_tree_renderers_total : forall g at_ recv k,
  G g -> recv < List.length g -> a_cycf at_ = [] ->
  forall fuel, fuel_bound g <= fuel ->
  exists ts, build_cause_tree fuel g recv = Some ts /\
             render_tree g at_ k recv ts = Some (if walks k then preorder_all ts else []) /\
             (forall toks, render_tree g at_ k recv ts = Some toks ->
                List.length toks = if walks k then list_sum (map tsize ts) else 0).
Proof. exact tree_renderers_total. Qed.
Print Assumptions C07_tree_renderers_total.

Theorem C07_plus_cyclic_field_refuted :
  G g_leaf /\ unwrap_tree g_leaf 0 = Some [] /\
  render_tree g_leaf {| a_bad := [0]; a_cycf := [0]; a_inline := [] |} KPlus 0 [] = None.
Proof. exact plus_cyclic_field_refuted. Qed.
Print Assumptions C07_plus_cyclic_field_refuted.

(* json.Marshal: if no cycle passes through an errdef node there is a fuel (rank n + 1 nested
   json.Marshal calls) with which it returns a document or an error, for every graph, every set
   of unencodable fields and every errdef node. *)
Theorem C07_json_terminates_partial : forall g bad rank, G g -> edge_ranked g rank ->
  forall n, is_errdef g n = true ->
  exists fuel, (exists sh, marshal_g fuel g bad n = JOk sh) \/ marshal_g fuel g bad n = JFail.
Proof. intros g bad rank HG. exact (json_terminates g bad rank (G_errdef_trees g HG)). Qed.
Print Assumptions C07_json_terminates_partial.

(* the explicit fuel: rank n + 1; and results are stable under more fuel, so the fuel of the
   check (|g| + 1) decides whenever the rank is bounded by the number of nodes *)
Theorem C07_json_fuel : forall g bad rank, G g -> edge_ranked g rank ->
  forall f n d, rank n <= f -> is_errdef g n = true -> marshal_err (S f) g bad n d <> JOut.
Proof. intros g bad rank HG. exact (marshal_err_fin g bad rank (G_errdef_trees g HG)). Qed.
Print Assumptions C07_json_fuel.

Theorem C07_json_fuel_monotone : forall g bad f n d, marshal_err f g bad n d <> JOut ->
  forall f', f <= f' -> marshal_err f' g bad n d = marshal_err f g bad n d.
Proof. exact marshal_err_mono. Qed.
Print Assumptions C07_json_fuel_monotone.

(* The fuel of the check decides: out of fuel |g|+1 means out of EVERY fuel (a node whose result
   still changes at fuel k+1 needs k+1 further distinct such nodes: pigeonhole), and a result
   reached with it is the result for every larger fuel.  So the model's verdict "Diverge" in
   Check/C07.v is exact, and the partial theorem needs no bound on the rank. *)
Theorem C07_json_fuel_decides : forall g bad n, n < List.length g ->
  (marshal_g (json_fuel g) g bad n = JOut -> forall fuel, marshal_g fuel g bad n = JOut) /\
  (marshal_g (json_fuel g) g bad n <> JOut ->
     forall fuel, json_fuel g <= fuel -> marshal_g fuel g bad n = marshal_g (json_fuel g) g bad n).
Proof. exact json_fuel_decides. Qed.
Print Assumptions C07_json_fuel_decides.

Theorem C07_json_check_fuel_suffices : forall g bad rank, G g -> edge_ranked g rank ->
  forall n, is_errdef g n = true -> marshal_g (json_fuel g) g bad n <> JOut.
Proof. intros g bad rank HG. exact (json_fuel_suffices_any_rank g bad rank (G_errdef_trees g HG)). Qed.
Print Assumptions C07_json_check_fuel_suffices.

(* an error is returned only because of an unencodable field value *)
Theorem C07_json_error_needs_bad_field : forall g f n d, marshal_err f g [] n d <> JFail.
Proof. exact marshal_err_nofail. Qed.
Print Assumptions C07_json_error_needs_bad_field.

(* K1: e = D.Wrap(f); f.cause = e.  The graph satisfies G (UnwrapTree is fine:
   [f* [e]]), and json.Marshal(e) runs out of every fuel. *)
Theorem C07_json_diverges_refuted :
  G g_k1 /\ (forall fuel, marshal_g fuel g_k1 [] 1 = JOut).
Proof. exact json_diverges. Qed.
Print Assumptions C07_json_diverges_refuted.

(* %#v: terminates when the map-kinded (inline) nodes have no cycle *)
Theorem C07_gostring_terminates_partial : forall g inl rk direct,
  closed g -> inline_ranked g inl rk -> (forall c, In c direct -> c < List.length g) ->
  forall fuel, (forall c, In c direct -> rk c < fuel) -> exists sh, gostring_g fuel g inl direct = JOk sh.
Proof. exact gostring_terminates. Qed.
Print Assumptions C07_gostring_terminates_partial.

(* K7: m := MM{}; m["c"] = []error{m}; e := D.Wrap(m) *)
Theorem C07_gostring_diverges_refuted :
  G g_k7 /\ (exists ts, unwrap_tree g_k7 1 = Some ts) /\
  (forall fuel, gostring_g fuel g_k7 [0] [0] = JOut).
Proof. exact gostring_diverges. Qed.
Print Assumptions C07_gostring_diverges_refuted.

(* The source-snippet reader, for every sequence of calls (file oracle, path, line, around) from
   every state of the memo.  Each call returns a string (never a panic); it is non-empty only if
   the memo allowed reading and the file is cached or readable now, and the line is a line of
   that content; [available] once decided keeps its value; decided false: nothing is returned,
   the state is unchanged and the file system is not consulted; the cache grows only by a
   completely read file. *)
Theorem C07_source_total : forall st cs, Forall step_ok (run_calls st cs).
Proof. exact (fun st cs => run_calls_ok cs st). Qed.
Print Assumptions C07_source_total.

Theorem C07_source_memo_written_once : forall cs st b, available st = Some b ->
  Forall (fun r => available (r_pre r) = Some b /\ available (r_post r) = Some b) (run_calls st cs).
Proof. exact run_calls_decided. Qed.
Print Assumptions C07_source_memo_written_once.

Theorem C07_source_decided_false : forall cs st, available st = Some false ->
  Forall (fun r => r_out r = Ok "" /\ r_post r = st /\ r_opened r = false) (run_calls st cs).
Proof. exact run_calls_false. Qed.
Print Assumptions C07_source_decided_false.

Theorem C07_source_decided_false_ignores_fs : forall st fs fs' p line around,
  available st = Some false -> snippet st fs p line around = snippet st fs' p line around.
Proof. exact snippet_false_any_fs. Qed.
Print Assumptions C07_source_decided_false_ignores_fs.

Theorem C07_source_states_chained : forall cs st,
  (match run_calls st cs with r :: _ => r_pre r = st | [] => True end) /\
  (forall pre r1 r2 post, run_calls st cs = pre ++ r1 :: r2 :: post -> r_pre r2 = r_post r1).
Proof. exact run_calls_chain. Qed.
Print Assumptions C07_source_states_chained.

(* getSourceLines itself would panic (slice bounds) for a negative [around]; StackSource clamps it
   and FramesAndSource only asks with around > 0 *)
Theorem C07_source_raw_no_panic : forall st fs p line around, (0 <= around)%Z ->
  forall st1 r op, get_source_lines st fs p line around = (st1, r, op) -> exists lines, r = Ok lines.
Proof. exact get_source_lines_no_panic. Qed.
Print Assumptions C07_source_raw_no_panic.

(* Link to the check.  An observation that agrees with the model satisfies the oracle whenever the
   model does not say Diverge ... *)
Theorem C07_corr_implies_ok : forall c,
  match c with
  | CR r => c_restored r = false -> model_native r <> MDiverge
  | CS _ => True
  end -> corr c = true -> ok c = true.
Proof. exact corr_implies_ok. Qed.
Print Assumptions C07_corr_implies_ok.

(* ... and under the guards of the theorems above it never does. *)
Theorem C07_model_total_under_guards : forall r, render_guard r -> model_native r <> MDiverge.
Proof. exact model_native_total. Qed.
Print Assumptions C07_model_total_under_guards.

(* the guards are decidable once the ranks are given *)
Theorem C07_guards_decidable :
  (forall g rank, edge_rankedb g rank = true -> edge_ranked g rank) /\
  (forall g inl rk, inline_rankedb g inl rk = true -> inline_ranked g inl rk) /\
  (forall r rank rk, render_guardb r rank rk = true -> render_guard r).
Proof. exact (conj edge_rankedb_sound (conj inline_rankedb_sound render_guardb_sound)). Qed.
Print Assumptions C07_guards_decidable.

(* non-vacuity: a graph under every guard with a foreign 2-cycle, sharing, an inner errdef node,
   a map-kinded node and an unencodable field; receiver = node 4 *)
Example C07_example :
  let g := [ gp 1%N (UMulti [Some 1; None; Some 2]);      (* 0: pointer, multi *)
             gp 2%N (USingle (Some 0));                   (* 1: pointer, back to 0: a foreign cycle *)
             gp 3%N (UMulti [Some 3]);                    (* 2: map-kinded *)
             ge 4%N [];                                   (* 3: errdef leaf *)
             ge 5%N [Some 0; Some 3] ] in                 (* 4: the receiver *)
  let at_ := {| a_bad := [3]; a_cycf := []; a_inline := [2] |} in
  let rank := fun n => match n with 4 => 2 | 3 => 0 | _ => 1 end in
  let ts := [Node 0 true [Node 1 false []; Node 2 false [Node 3 false []]]; Node 3 false []] in
  let c := fun bad rk out sh =>
           CR {| c_graph := g; c_attrs := {| a_bad := bad; a_cycf := []; a_inline := [2] |}; c_recv := 4;
                 c_direct := []; c_rk := rk; c_restored := false; c_out := out; c_shape := sh; c_valid := true |} in
  Gb g = true /\ unwrap_tree g 4 = Some ts /\
  render_tree g at_ KPlus 4 ts = Some [(0, 0); (1, 1); (1, 2); (2, 3); (0, 3)] /\
  marshal_g (json_fuel g) g [] 4 = JOk [0; 1; 1; 2; 0] /\
  marshal_g (json_fuel g) g [3] 4 = JFail /\
  corr (c [] RJson OOk [0; 1; 1; 2; 0]) = true /\ ok (c [] RJson OOk [0; 1; 1; 2; 0]) = true /\
  corr (c [3] RJson OJsonErr []) = true /\ ok (c [3] RJson OJsonErr []) = true /\
  corr (c [3] (RTree KPlus) OOk [0; 1; 1; 2; 0]) = true /\
  edge_rankedb g rank = true /\
  (forall bad rk out sh, match c bad rk out sh with CR r => render_guardb r rank (fun _ => 0) = true | _ => False end).
Proof. cbv zeta. repeat split; vm_compute; reflexivity. Qed.

(* a source sequence: present, then deleted (served from the cache), and from a fresh memo a
   missing file decides [available := false] for good *)
Example C07_source_example :
  let fsA := fun p : string => if str_eqb p "a.go" then Present ["l1"; "l2"; "l3"; "l4"] else Missing in
  let fs0 := fun _ : string => Missing in
  let call := fun fs => {| c_fs := fs; c_path := "a.go"; c_line := 3%Z; c_around := 1%Z |} in
  map r_out (run_calls s_init [call fsA; call fs0]) =
    [Ok (cat ["  2: l2"; nl; "> 3: l3"; nl; "  4: l4"]); Ok (cat ["  2: l2"; nl; "> 3: l3"; nl; "  4: l4"])] /\
  map r_out (run_calls s_init [call fs0; call fsA]) = [Ok ""; Ok ""] /\
  map (fun r => available (r_post r)) (run_calls s_init [call fs0; call fsA]) = [Some false; Some false].
Proof. vm_compute. repeat split; reflexivity. Qed.

(* K12, stated about the model: outside the guard of C06's theorems the statement of C06/C07 is FALSE.  A cycle made
   of value-kinded errors only (two struct values that reach each other through a shared pointer field), below an
   errdef error: buildNode finds no address to track, and for EVERY amount of fuel the construction of the cause
   tree does not finish - in Go: unbounded recursion, a fatal stack overflow in UnwrapTree, %+v, Node.LogValue and
   json.Marshal.  The run exercises exactly this graph (class value-kind-only-cycle) and observes the crash. *)
Theorem C07_value_kind_only_cycle_refuted :
  exists g recv, forall fuel, Errdef.Model.Tree.build_cause_tree fuel g recv = None.
Proof. exists Errdef.Proofs.C07ValueCycle.vcycle, 2%nat. exact (proj2 (proj2 (proj2 (proj2 Errdef.Proofs.C07ValueCycle.vcycle_refuted)))). Qed.
Print Assumptions C07_value_kind_only_cycle_refuted.
