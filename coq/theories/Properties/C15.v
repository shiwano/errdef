(* C15 - Redacted values never appear in any output.
   Statements only; proofs are in Proofs/C15Proofs.v.

   BOUNDARY (for DESIGN.md, section C15).  The statement covers the positions at
   which a sink reaches a value "through its own methods".  fmt does NOT hand a
   value to its methods in two situations, and prints it by reflection there; both
   are standard-library behaviour that Redacted[T] cannot influence, both are
   modelled faithfully (Model/Redact.v: [meth] = false) and both are OUTSIDE the
   property ([inside] in Check/C15.v is false, [ok] does not judge, the model still
   has to predict the text):
     (a) below an unexported struct field (reflect's read-only flag: CanInterface
         is false).  C15_unexported_leaks_refuted.
     (b) inside fmt's bad-verb path: a pointer BELOW depth 0 (struct field, map
         value, slice element) under a verb that is invalid for pointers (every verb
         but v d x X o b) goes to fmtPointer -> badVerb, which sets p.erroring and
         re-prints the pointee with verb v at depth 0 and with handleMethods disabled.
         Three instances were confirmed on the unchanged tree:
           1. formatting or logging a FieldValue wrapper itself instead of its
              Value()                                          (design time; not generated)
           2. the fields collection under such a verb: fmt.Sprintf("%s", err.Fields())
              prints &{map[...:{%!s(PTRTYPE=&{{SECRET}}) 1}] 1}, PTRTYPE = pointer to errdef.fieldValue[...]
                                                               (design time; C15_badverb_fields_refuted)
           3. NEW: a Value() that contains, at an exported / interface-accessible
              position, a pointer to a struct with an exported Redacted field:
                type S struct{ Tok errdef.Redacted[string] }
                D := errdef.Define("d", errdef.Details{"p": &S{errdef.Redact("SECRET")}})
                for _, fv := range D.New("m").(errdef.Error).Fields().All() { fmt.Sprintf("%s", fv.Value()) }
              prints map[p:%!s(PTRTYPE=&{{SECRET}})], PTRTYPE = pointer to main.S; %v %+v %#v %d %x %X %o %b print
              the address, JSON / slog / the %+v text of the error are fine, and the
              same pointer as the field value itself (depth 0) is fine under every verb.
              Generated in the stream outside the property (shape "w", and pointers
              nested by the random shapes).            C15_badverb_nested_ptr_refuted.
   Inside the property the theorems are unconditional for json, slog, the text of
   formatErrorDetails and every directive that is valid for pointers, and hold for
   the remaining directives on every value without a pointer to a composite below
   depth 0 ([ptrs_guarded]).

   MODELLED vs OBSERVED.  The dispatch rules of fmt / encoding/json / log/slog are an
   oracle validated by the correspondence.  Compared literally with the
   implementation: %v %+v %#v %s %q %d %x of Value(); json.Marshal of the value, the
   fields, the error, a Node; MarshalText / MarshalBinary; slog text and JSON of the
   value, the fields, the error, a Node (slogValueToAny for its causes); %+v of the
   error (whole text without stack trace, the "fields:" block with one); where the
   fields end up after the JSON round trip.  Only observed (no marker, both runs
   equal after masking addresses, placeholder count where the statement fixes it):
   the other 197 directives on values, every directive on the error / its tree / a
   Node / the fields collection, xml, gob, slog of a Stack, every sink on the
   restored error. *)
From Errdef Require Import Base.Str Model.Redact Check.C15 Proofs.C15Proofs.
From Errdef Require Gen.Consts Model.Unmarshal.

(* [same_public true v v']: v and v' are the same Go value except for the payloads of
   Redacted values at positions a sink reaches through methods (the payloads keep their
   Go type); below an unexported struct field they are identical. *)

(* Non-interference, field values.  For every sink of a field value - fmt with ANY
   rendering of the public leaves (all 17 verbs, every flag set and width), the value
   inside formatErrorDetails, json.Marshal, slog text and JSON - every value of any
   nesting and every two assignments of secrets, the outputs are equal. *)
Theorem C15_noninterference : forall (k : vsink) (v v' : val),
  same_public true v v' -> vsink_dom k v -> run_vsink k v = run_vsink k v'.
Proof. exact vsink_ni. Qed.
Print Assumptions C15_noninterference.

(* the same, with the domain spelled out for fmt *)
Theorem C15_noninterference_fmt : forall (L : leaves) (sp : fspec) (v v' : val),
  same_public true v v' ->
  ptr_valid (f_verb sp) = true \/ ptrs_guarded true v = true ->
  fmt_value L sp v = fmt_value L sp v'.
Proof. exact (fun L sp v v' H D => vsink_ni (KFmt L sp) v v' H D). Qed.
Print Assumptions C15_noninterference_fmt.

(* Non-interference, error trees: %+v of the error, JSON of the error / of a Node, slog
   value of the error and of a Node (slogValueToAny for the causes), for every tree. *)
Theorem C15_noninterference_error : forall (k : esink) (e e' : err),
  same_err e e' -> run_esink k e = run_esink k e'.
Proof. exact esink_ni. Qed.
Print Assumptions C15_noninterference_error.

(* Non-interference, the fields collection: %v-family (every directive that is valid for
   pointers, any iteration order of the data map), JSON, slog. *)
Theorem C15_noninterference_fields : forall (L : leaves) (sp : fspec) fs fs' last order,
  same_fields fs fs' -> ptr_valid (f_verb sp) = true ->
  fmt_value L sp (VFields fs last order) = fmt_value L sp (VFields fs' last order) /\
  json_value (VFields fs last order) = json_value (VFields fs' last order) /\
  (forall prefix key, log_text prefix key (fields_log fs) = log_text prefix key (fields_log fs')) /\
  log_json (fields_log fs) = log_json (fields_log fs').
Proof.
  exact (fun L sp fs fs' last order H V =>
           conj (fmt_valid_ni L sp _ _ (same_public_fields fs fs' last order H) V)
             (conj (vsink_ni KJson _ _ (same_public_fields fs fs' last order H) I) (fields_log_ni fs fs' H))).
Qed.
Print Assumptions C15_noninterference_fields.

(* At each redacted position the output is exactly the placeholder: every directive, any
   payload, by value and through a pointer; JSON, Text, Binary, slog. *)
Theorem C15_placeholder_shown : forall (L : leaves) (sp : fspec) (top : bool) (indent prefix key : string) (p : val),
  fmt_at L (init sp) true top (VRedacted p) = placeholder /\
  fmt_at L (init sp) true top (VPtr (VRedacted p)) = placeholder /\
  detail_value indent (VRedacted p) = placeholder /\
  json_value (VRedacted p) = json_string true placeholder /\
  json_value (VPtr (VRedacted p)) = json_string true placeholder /\
  marshal_text (VRedacted p) = Some placeholder /\
  marshal_binary (VRedacted p) = Some placeholder /\
  log_text prefix key (log_value (VRedacted p)) = (" " ++ prefix ++ key ++ "=" ++ placeholder)%string /\
  log_json (log_value (VRedacted p)) = json_string false placeholder.
Proof. exact placeholder_shown. Qed.
Print Assumptions C15_placeholder_shown.

(* ... and inside a composite the text of an exported Redacted field is the placeholder *)
Theorem C15_placeholder_in_struct : forall (L : leaves) st top n fs fn p,
  In (fn, true, VRedacted p) fs ->
  fmt_at L st true top (VStruct n fs) = struct_shell st n (map (fmt_field L st true) fs) /\
  In (fn, placeholder) (map (fmt_field L st true) fs).
Proof. exact placeholder_in_struct. Qed.
Print Assumptions C15_placeholder_in_struct.

(* JSON round trip: a field all of whose writers are Redacted wrappers is restored among
   the unknown fields with the placeholder and nowhere typed, whatever binds the other
   fields; the restored fields do not depend on the secrets; Value() of the original
   wrapper still returns the secret. *)
Theorem C15_roundtrip_placeholder : forall conv (fs : fields) (last : Z) (n : string),
  (exists k v, In (k, v) fs /\ k_name k = n) ->
  (forall k v, In (k, v) fs -> k_name k = n -> is_direct v) ->
  In (n, Unknown (JStr placeholder)) (restore_fields conv fs last) /\
  (forall s, In (n, s) (restore_fields conv fs last) -> s = Unknown (JStr placeholder)) /\
  (forall fs', same_fields fs fs' -> restore_fields conv fs last = restore_fields conv fs' last) /\
  (forall p, value_of (VRedacted p) = Some p).
Proof.
  exact (fun conv fs last n Hex Hd =>
           match roundtrip_placeholder_iff conv fs last n (fun k v H E => direct_json v (Hd k v H E)) with
           | conj A B => conj (proj2 A Hex) (conj B (conj (fun fs' H => roundtrip_ni conv fs fs' last H) (fun p => eq_refl)))
           end).
Qed.
Print Assumptions C15_roundtrip_placeholder.

(* The boundary the statement draws (not findings): see the comment at the top. *)
Theorem C15_unexported_leaks_refuted :
  fmt_value std (spec_of Vv false false) (leak_unexported (VStr "SECRET")) = "{n {SECRET}}" /\
  fmt_value std (spec_of Vv false false) (leak_unexported (VStr "SECRET"))
    <> fmt_value std (spec_of Vv false false) (leak_unexported (VStr "OTHER")).
Proof. exact unexported_leaks. Qed.
Print Assumptions C15_unexported_leaks_refuted.

Theorem C15_badverb_nested_ptr_refuted :
  same_public true (leak_nested_ptr (VStr "SECRET")) (leak_nested_ptr (VStr "OTHER")) /\
  fmt_value std (spec_of Vs false false) (leak_nested_ptr (VStr "SECRET")) = "map[p:%!s(*S=&{{SECRET}})]" /\
  fmt_value std (spec_of Vs false false) (leak_nested_ptr (VStr "SECRET"))
    <> fmt_value std (spec_of Vs false false) (leak_nested_ptr (VStr "OTHER")) /\
  fmt_value std (spec_of Vv false false) (leak_nested_ptr (VStr "SECRET")) = "map[p:0xPTR]".
Proof. exact badverb_nested_ptr_leaks. Qed.
Print Assumptions C15_badverb_nested_ptr_refuted.

Theorem C15_badverb_fields_refuted :
  same_public true (leak_fields (VStr "SECRET")) (leak_fields (VStr "OTHER")) /\
  fmt_value std (spec_of Vs false false) (leak_fields (VStr "SECRET"))
    <> fmt_value std (spec_of Vs false false) (leak_fields (VStr "OTHER")) /\
  fmt_value std (spec_of Vv false false) (leak_fields (VStr "SECRET")) = "&{map[0xPTR:{0xPTR 1}] 1}".
Proof. exact badverb_fields_leaks. Qed.
Print Assumptions C15_badverb_fields_refuted.

(* Link to the check.  The text the model gives for a literally modelled sink, on a
   well-formed case inside the statement, contains no "<" and therefore no marker ... *)
Theorem C15_model_output_clean : forall c s,
  wf c = true -> inside c = true -> model c = Some s -> contains mark s = false.
Proof. exact (fun c s W I M => clean_no_mark s (model_clean c s W I M)). Qed.
Print Assumptions C15_model_output_clean.

(* ... so an observation that agrees with the model satisfies the secrecy half of [ok]:
   neither marker occurs and the two runs cannot be told apart.  (The other half,
   [ok_shown], counts placeholders in the observed text; on the model's side it is
   C15_placeholder_shown.) *)
Theorem C15_corr_implies_ok : forall c,
  inside c = true -> model c <> None -> corr c = true -> ok_secret c = true.
Proof. exact corr_implies_ok_secret. Qed.
Print Assumptions C15_corr_implies_ok.

(* non-vacuity: a value with a secret in a map, in a slice, in an exported struct field
   behind a top-level pointer and behind a pointer to the wrapper; two different secrets *)
Example C15_example :
  let shape (q : val) :=
    VPtr (VStruct "main.S"
      [("Name", true, VStr "a b");
       ("Tok", true, VRedacted q);
       ("M", true, VMap "map[string]interface {}"
                     [("k", VIface (VRedacted q)); ("l", VIface (VSlice [VIface (VPtr (VRedacted q)); VIface (VInt 5)]))])]) in
  let v := shape (VStr "SECRET-1") in
  let v' := shape (VStr "SECRET-2") in
  same_public true v v' /\ v <> v' /\ ptrs_guarded true v = true /\
  fmt_value std plusv v = "&{Name:a b Tok:[REDACTED] M:map[k:[REDACTED] l:[[REDACTED] 5]]}" /\
  fmt_value std (spec_of Vs false false) v = fmt_value std (spec_of Vs false false) v' /\
  json_value v = "{""Name"":""a b"",""Tok"":""[REDACTED]"",""M"":{""k"":""[REDACTED]"",""l"":[""[REDACTED]"",5]}}" /\
  restore_fields conv_all [({| k_name := "tok"; k_ty := "errdef.Redacted[string]"; k_idx := 1 |}, VRedacted (VStr "SECRET-1"))] 1
    = [("tok", Unknown (JStr placeholder))].
Proof. vm_compute. repeat split; try reflexivity. discriminate. Qed.

(* TIE TO THE SOURCE: the placeholder of the model (and the one the unmarshaler model recognises)
   is the constant redactedStr srcgen reads from redaction.go on every run *)
Theorem C15_placeholder_is_source :
  Model.Redact.placeholder = Gen.Consts.redactedStr /\ Model.Unmarshal.redacted_str = Gen.Consts.redactedStr.
Proof. split; reflexivity. Qed.
Print Assumptions C15_placeholder_is_source.
