(* C05 - the stack starts at the creation site and every stack view agrees.
   Statements only; proofs are in Proofs/C05Proofs.v.

   PARTIAL BY NATURE.  [user] (the goroutine stack above the library's own
   frames at capture time, innermost first), [lib] (the pcs of the library's
   own frames) and the symbolisers [sym], [sym2] are universally quantified
   inputs: what runtime.Callers returns, what the inliner does and how pcs are
   symbolised is observed by the harness (Check/C05.v), not proved.  The
   library's call chains, callersSkip, callersDepth and the constructors' skip
   arguments are read from /repo by srcgen on every run (Gen/Chain.v,
   Gen/Consts.v): the theorems below are re-checked against them. *)
From Errdef Require Import Base.Str Model.Core Model.Stack Check.C05 Proofs.C05Proofs.
Local Open Scope Z_scope.

(* srcgen recognised newStack / newError (pc buffer of `depth` entries, the skip
   handed to runtime.Callers unchanged, nil stack iff NoTrace) and all six
   constructors' call paths *)
Theorem C05_generated_shapes_match :
  capture_shape_ok = true /\ forallb ctor_matched [CNew; CErrorf; CWrap; CWrapf; CJoin; CRecover] = true.
Proof. split; reflexivity. Qed.
Print Assumptions C05_generated_shapes_match.

(* newStack (as of the fix for F14) captures into a buffer of min(depth, callersDepth) entries and doubles it, up
   to depth, while runtime.Callers fills it completely.  For every stack, every starting size and every depth
   that loop returns what ONE call with a buffer of depth entries returns - which is what [go_callers] models:
   StackDepth(n) keeps the n innermost frames, all of them when fewer exist, for every n including math.MaxInt. *)
Theorem C05_growing_buffer_is_one_capture : forall (A : Type) (rest : list A) fuel b depth,
  0 < b -> b <= depth -> (List.length rest < fuel + Z.to_nat b)%nat ->
  grow fuel b depth rest = zfirstn depth rest.
Proof. exact (@grow_is_single_capture). Qed.
Print Assumptions C05_growing_buffer_is_one_capture.

(* StackSkip values are added with saturation at math.MaxInt (as of the fix for F15).  The model adds them exactly
   (in Z); on every goroutine stack (no longer than math.MaxInt) both remove the same frames. *)
Theorem C05_saturating_skip_is_exact_sum : forall (A : Type) (gs : list A) a b,
  Z.of_nat (List.length gs) <= max_int ->
  zskipn (add_skip a b) gs = zskipn (a + b) gs.
Proof. exact (@saturating_skip_is_exact_sum). Qed.
Print Assumptions C05_saturating_skip_is_exact_sum.



(* The skip each constructor passes is exactly the number of the library's own
   frames on the stack at capture time: length chain_<ctor> = callersSkip for
   New, Errorf, Wrap, Wrapf, Join and = callersSkip + 1 for Recover (whose error
   is created in a deferred closure called by runtime.gopanic).  A computation on
   generated data: inserting a helper frame, editing the constant or an offset
   breaks it.  (Until F9's fix Recover passed callersSkip + 2 for a 5-frame chain.) *)
Theorem C05_chain_ok : forall k,
  chain_ok k = true
  /\ Z.of_nat (List.length (chain_of k)) = callersSkip + ctor_extra k
  /\ (k <> CRecover -> ctor_extra k = 0) /\ recover_extra_skip = 1.
Proof. intros k. destruct k; repeat split; try reflexivity; intros H; now elim H. Qed.
Print Assumptions C05_chain_ok.

(* newError computes the brief's capture formula
     firstn (eff_depth d) (skipn (skip d + callersSkip + extra) (chain ++ user)) *)
Theorem C05_capture_formula : forall (A : Type) k d (chain_pcs user : list A),
  ctor_stack k d chain_pcs user
  = if d_notrace d then None else Some (capture d (ctor_extra k) (chain_pcs ++ user)).
Proof. intros. apply new_error_stack_capture. Qed.
Print Assumptions C05_capture_formula.

(* New, Errorf, Wrap, Wrapf, Join on a definition or any derived factory, total
   skip 0, no NoTrace: the first frame is the caller's call site. *)
Theorem C05_head_is_caller :
  forall (A : Type) (sym : A -> frame) (lib : string -> A) k a0 a1 org kind dopts p (u : A) rest,
  k <> CRecover ->
  has_notrace (all_opts dopts p) = false -> sum_skips (all_opts dopts p) = 0 ->
  head_frame sym (ctor_stack k (factory a0 a1 org kind dopts p) (map lib (chain_of k)) (u :: rest))
  = Some (sym u).
Proof. intros A sym lib k a0 a1 org kind dopts p u rest _. apply head_is_caller. Qed.
Print Assumptions C05_head_is_caller.

(* Recover: the frames above the library's chain start with the function that
   called panic (the frame directly above runtime.gopanic: the user function for
   panic(v), runtime.panicmem / mapassign / goPanicIndex / panicdivide for panics
   raised by the runtime); that frame is the head.  (False until F9's fix, when
   the head was the CALLER of that function.) *)
Theorem C05_recover_head_is_panicker :
  forall (A : Type) (sym : A -> frame) (lib : string -> A) a0 a1 org kind dopts p (u : A) rest,
  has_notrace (all_opts dopts p) = false -> sum_skips (all_opts dopts p) = 0 ->
  head_frame sym (ctor_stack CRecover (factory a0 a1 org kind dopts p)
                    (map lib (chain_of CRecover)) (u :: rest)) = Some (sym u).
Proof. intros A sym lib. exact (head_is_caller sym lib CRecover). Qed.
Print Assumptions C05_recover_head_is_panicker.

(* StackSkip values given at Define, in (nested) contexts and at the call site add
   up and remove that many innermost frames; the last StackDepth wins, n > 0 keeps
   n frames, 32 otherwise; NoTrace anywhere gives no stack.  All six constructors. *)
Theorem C05_skip_adds_depth_last :
  forall (A : Type) (lib : string -> A) k a0 a1 org kind dopts p (user : list A),
  0 <= sum_skips (all_opts dopts p) ->
  ctor_stack k (factory a0 a1 org kind dopts p) (map lib (chain_of k)) user
  = if has_notrace (all_opts dopts p) then None
    else Some (firstn (Z.to_nat (spec_depth (all_opts dopts p)))
                 (skipn (Z.to_nat (sum_skips (all_opts dopts p))) user)).
Proof. exact @stack_by_options. Qed.
Print Assumptions C05_skip_adds_depth_last.

Theorem C05_skips_add_over_placements : forall dopts ctx opts,
  sum_skips (all_opts dopts (PWith ctx opts)) = sum_skips dopts + sum_skips ctx + sum_skips opts
  /\ sum_skips (all_opts dopts (PWithOptions opts)) = sum_skips dopts + sum_skips opts
  /\ forall inner, sum_skips (ctx_with ctx inner) = sum_skips ctx + sum_skips inner.
Proof.
  intros. unfold all_opts, ctx_with. rewrite !sum_skips_app. repeat split; try lia. intros. apply sum_skips_app.
Qed.
Print Assumptions C05_skips_add_over_placements.

(* StackDepth(n), n > 0, keeps min n available; 32 by default *)
Theorem C05_depth_keeps_min :
  forall (A : Type) (lib : string -> A) k a0 a1 org kind dopts p (user : list A),
  0 <= sum_skips (all_opts dopts p) -> has_notrace (all_opts dopts p) = false ->
  len (ctor_stack k (factory a0 a1 org kind dopts p) (map lib (chain_of k)) user)
  = Z.min (spec_depth (all_opts dopts p)) (Z.max 0 (Z.of_nat (List.length user) - sum_skips (all_opts dopts p)))
  /\ (forall n, 0 < n -> last_depth (all_opts dopts p) 0 = n -> spec_depth (all_opts dopts p) = n)
  /\ (last_depth (all_opts dopts p) 0 <= 0 -> spec_depth (all_opts dopts p) = 32).
Proof. intros. split; [now apply depth_keeps_min|apply spec_depth_cases]. Qed.
Print Assumptions C05_depth_keeps_min.

(* NoTrace: nil stack, StackFrom reports absence - every constructor, every stack *)
Theorem C05_notrace_absent :
  forall (A : Type) (lib : string -> A) k a0 a1 org kind dopts p (user : list A),
  has_notrace (all_opts dopts p) = true ->
  stack_from (ctor_stack k (factory a0 a1 org kind dopts p) (map lib (chain_of k)) user) = None.
Proof. intros. apply notrace_absent. now rewrite (proj1 (proj2 (factory_stack _ _ _ _ _ _))). Qed.
Print Assumptions C05_notrace_absent.

(* Frames, HeadFrame, Len, FramesAndSource, StackTrace (symbolised), the JSON and
   slog stacks all are [map sym pcs] *)
Theorem C05_views_agree : forall (A : Type) (sym : A -> frame) (s : option (list A)),
  let F := map sym (pcs_of s) in
  frames sym s = F /\ head_frame sym s = hd_error F /\ len s = Z.of_nat (List.length F)
  /\ frames_and_source sym s = F /\ map sym (stack_trace s) = F
  /\ json_stack sym s = (if nilb F then None else Some F)
  /\ slog_stack sym s = F /\ slog_origin sym s = hd_error F
  /\ (stack_from s = None <-> F = []).
Proof. exact @views_agree. Qed.
Print Assumptions C05_views_agree.

(* DebugStack describes the same frames: it symbolises StackTrace() with
   runtime.CallersFrames like Frames() (a generated fact, Gen/Chain.v
   debugstack_symboliser; until F8's fix it used FuncForPC/FileLine on the raw
   return pcs, a second symboliser sym2 that disagrees with sym for inlined
   callers and line numbers).  The remaining hypothesis: every captured pc has a
   function name - DebugStack leaves out frames with Function = "", which the
   runtime produces only for pcs it does not know. *)
Theorem C05_debugstack_agrees :
  forall (A : Type) (sym : A -> frame) (sym2 : A -> option frame) (s : option (list A)),
  (forall pc, In pc (pcs_of s) -> named (sym pc) = true) ->
  debug_stack sym sym2 s = frames sym s.
Proof. exact @debugstack_agrees. Qed.
Print Assumptions C05_debugstack_agrees.

(* the guard is needed: an unnamed frame is in Frames() but not in DebugStack *)
Theorem C05_debugstack_unnamed_refuted :
  exists (s : option (list frame)), debug_stack idf (fun _ => None) s <> frames idf s.
Proof.
  exists (Some [ {| fr_func := ""; fr_file := ""; fr_line := 0 |} ]). vm_compute. discriminate.
Qed.
Print Assumptions C05_debugstack_unnamed_refuted.

(* Link to the check: an observation that agrees with the model satisfies the
   specification [ok] - every constructor, every case whose reference frames all
   have function names. *)
Theorem C05_corr_implies_ok : forall c,
  user_named c = true -> corr c = true -> ok c = true.
Proof. exact corr_ok. Qed.
Print Assumptions C05_corr_implies_ok.

(* non-vacuity: options at Define, in the context and at the call site; a
   5-frame stack above the library chain *)
Example C05_example :
  let f n := {| fr_func := "main.f"; fr_file := "main.go"; fr_line := n |} in
  let user := [f 1; f 2; f 3; f 4; f 5] in
  let dopts := [OSkip 1; ODepth 1] in
  let p := PWith [ODepth 40; OSkip 1] [ODepth 2; OSource 1 (-1)] in
  let d := factory 1%N 2%N 0%nat "k" dopts p in
  chain_ok CWrapf = true /\ sum_skips (all_opts dopts p) = 2 /\ spec_depth (all_opts dopts p) = 2
  /\ ctor_stack CWrapf d (chain_frames CWrapf) user = Some [f 3; f 4]
  /\ ctor_stack CRecover d (chain_frames CRecover) user = Some [f 3; f 4]
  /\ head_frame idf (ctor_stack CJoin (factory 1%N 2%N 0%nat "k" [] PDef) (chain_frames CJoin) user) = Some (f 1)
  /\ stack_from (ctor_stack CNew (factory 1%N 2%N 0%nat "k" [ONoTrace] PDef) (chain_frames CNew) user) = None.
Proof. vm_compute. repeat split; reflexivity. Qed.
