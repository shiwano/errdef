(* C10 — Unmarshal is total: a result or a classified error, never a panic.
   Statements only; proofs in Proofs/C10Proofs.v. *)
From Errdef Require Import Base.Str Base.Outcome Model.Core Model.Convert Model.Unmarshal Check.UM Check.C10 Proofs.C10Proofs
  Model.UnmarshalGen Model.GoLite Model.UnmarshalGL Proofs.UnmarshalSrc.

(* ---- the model IS the source ---------------------------------------------------------------------------- *)
(* On every run srcgen (golite.go) translates the bodies of Unmarshaler.Unmarshal / unmarshal / unmarshalCause /
   resolveKind / resolveDefinitionFromMessage from unmarshaler/unmarshaler.go, statement by statement, into the
   deep-embedded Go fragment of Model/GoLite.v (Gen/GoLiteSrc.v): block scoping resolved to distinct variables,
   selectors / methods / conversions / literals as named primitives.  Nothing in that translation knows what the
   functions are for. *)

(* the translation was complete: no construct outside the fragment, no map or slice that is written while a second
   name can reach it (the condition under which the interpreter's value semantics of maps and slices is Go's),
   and every primitive the bodies call has a meaning in Model/UnmarshalGL.um_ext *)
Theorem C10_source_translated : um_translation_ok = true.
Proof. vm_compute. reflexivity. Qed.
Print Assumptions C10_source_translated.

(* THE TIE: for every configuration, every input - a decoder error, a nil DecodedData, any decoded tree of any depth
   and width with nil entries anywhere in Causes, field names distinct at each node as in a Go map - and every fuel
   that covers the tree's depth, running the TRANSLATED Unmarshal with the GoLite interpreter returns exactly what the
   hand-written model Model/Unmarshal.v returns.  So every theorem about unmarshal_top / unmarshal / unmarshal_cause
   (here, and in C09, C12, C13, C20) is a theorem about the code as srcgen read it in this run. *)
Theorem C10_source_is_model : forall c od decerr,
  match od with Some d => dd_nodup d | None => True end ->
  forall n, (2 * match od with Some d => dd_depth d | None => O end + 1 <= n)%nat ->
  um_run (S n) ".Unmarshal" [VD (DU c); input_val od decerr] = enc_rerr (top_model c od decerr).
Proof. exact um_top_source_is_model. Qed.
Print Assumptions C10_source_is_model.

(* the same for the two recursive workers, on every node *)
Theorem C10_source_workers_are_model : forall c d, dd_nodup d -> forall n, (2 * dd_depth d <= n)%nat ->
  um_run (S n) ".unmarshal" [VD (DU c); VD (DNode d)] = enc_rerr (unmarshal c d) /\
  um_run (S (S n)) ".unmarshalCause" [VD (DU c); VD (DNode d)] = enc_cause (unmarshal_cause c d).
Proof. exact um_source_is_model. Qed.
Print Assumptions C10_source_workers_are_model.

(* totality, stated about the translated source itself: it never panics, never leaves the fragment, never runs out
   of fuel - it returns a restored error, or exactly one failure classified under one of the four definitions *)
Theorem C10_source_total : forall c od decerr,
  match od with Some d => dd_nodup d | None => True end ->
  exists r, src_unmarshal_top (fuel_for od) c od decerr = Some r /\
    match r with
    | UOk _ => True
    | UFail fs => exists f, fs = [f] /\ (fl_class f = cls_decode \/ fl_class f = cls_kind \/ fl_class f = cls_field \/ fl_class f = cls_internal)
    | UPanic _ => False
    end.
Proof. exact source_total. Qed.
Print Assumptions C10_source_total.

(* ---- the binding rules (converter.go) are still pinned by statement groups ------------------------------------ *)
(* Model/Convert.v transcribes the five steps of tryConvertFieldValue and the JSON route of tryConvertViaJSON (which
   target kinds go through JSON); srcgen alpha-renames the two bodies and checks that every group the model was
   written from is there, in this order and with nothing else between them (Gen/UnmarshalSrc.v lists them). *)
Theorem C10_unmarshal_source_shape_recognised : unmarshal_source_ok = true.
Proof. exact unmarshal_source_shape. Qed.
Print Assumptions C10_unmarshal_source_shape_recognised.

(* binding a decoded value to a typed key never panics, for every field type and
   every Go value a decoder may hand over (as of the fix commit for F5) *)
Theorem C10_binding_never_panics : forall T v, is_panic (try_convert T v) = false.
Proof. exact UnmarshalFacts.try_convert_no_panic. Qed.
Print Assumptions C10_binding_never_panics.

(* For every configuration (resolver contents and order, default, strict, custom keys,
   sentinels) and every decoded tree of any depth - nil top level and nil entries in
   Causes included - Unmarshal returns a value or a non-empty set of failures, each
   classified as unknown_kind, unknown_field or internal; never a panic.  No fuel:
   the recursion is structural on the decoded tree. *)
Theorem C10_total : forall c od,
  match unmarshal_top c od with
  | UPanic _ => False
  | UFail fs => fs <> [] /\ Forall (fun f => fl_class f = cls_kind \/ fl_class f = cls_field \/ fl_class f = cls_internal) fs
  | UOk _ => True
  end.
Proof. exact unmarshal_total. Qed.
Print Assumptions C10_total.

(* the same for a node restored as a cause (unmarshalCause) *)
Theorem C10_cause_total : forall c d,
  match unmarshal_cause c d with
  | UPanic _ => False
  | UFail fs => fs <> [] /\ Forall (fun f => fl_class f = cls_kind \/ fl_class f = cls_field \/ fl_class f = cls_internal) fs
  | UOk _ => True
  end.
Proof. exact cause_good. Qed.
Print Assumptions C10_cause_total.

(* a class determines exactly one of the four errors.Is answers *)
Theorem C10_class_exclusive : forall s, class3 s ->
  existsb (str_eqb s) classes = true /\ count_true (map (str_eqb s) classes) = 1 /\
  str_eqb s cls_decode = false /\ str_eqb s "ok" = false.
Proof. exact class3_facts. Qed.
Print Assumptions C10_class_exclusive.

(* an observation that agrees with the model satisfies C10 (the model is a pure
   function: it cannot modify its input) *)
Theorem C10_corr_implies_ok : forall c, corr c = true -> ok c = true.
Proof. exact corr_implies_ok. Qed.
Print Assumptions C10_corr_implies_ok.

Example C10_example :
  let k := {| uk_key := {| k_id := 1; k_name := "n"; k_ty := 2 |}; uk_ty := FScalar {| s_id := 2; s_kind := KInt |} |} in
  let d := {| ud_def := define 1000 0 "k1" [ONoTrace]; ud_keys := [k] |} in
  let c := {| u_defs := [d]; u_default := None; u_strict := true; u_custom := []; u_sentinels := [] |} in
  let f3 := DS ty_float64 (SF64 4613937818241073152) in
  (* a bound field, a nil cause, an unknown-kind cause with nested causes *)
  (exists e, unmarshal_top c (Some (DD "m" "k1" "" [("n", f3)] [] [Some (DD "c" "zz" "T" [] [] [Some (DD "x" "k1" "" [] [] [] "")] "")] "")) = UOk e) /\
  unmarshal_top c (Some (DD "m" "k1" "" [("n", f3)] [] [None] ""))
    = UFail [{| fl_class := cls_internal; fl_kind := ""; fl_field := "" |}] /\
  unmarshal_top c (Some (DD "m" "k1" "" [("zz", f3)] [] [] ""))
    = UFail [{| fl_class := cls_field; fl_kind := "k1"; fl_field := "zz" |}].
Proof. vm_compute. repeat split; try reflexivity. eexists. reflexivity. Qed.
