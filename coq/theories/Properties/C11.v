(* C11 — Typed field binding is value-preserving or declined.
   Statements only; proofs are in Proofs/C11Proofs.v.  The model is Model/Convert.v
   (conv_f64 = tryConvertFloat64, conv_i64 = tryConvertInt64, try_convert =
   tryConvertFieldValue); floats are IEEE-754 bit patterns interpreted by Flocq.
   All theorems quantify over every bit pattern / every integer; the target kind is
   quantified too (guard [is_int_kind k = true] = the ten integer kinds).
   Theorems that mention real numbers depend on the axioms of Coq's Reals library
   (through Flocq); nothing else. *)
From Coq Require Import ZArith Reals Bool.
From Flocq Require Import Core IEEE754.BinarySingleNaN.
From Errdef Require Import Base.Str Base.Outcome Model.Core Model.Convert Model.Unmarshal Check.C11 Proofs.C11Proofs Proofs.C11Binding.
Local Open Scope Z_scope.

(* ---- the model is regenerated from the source ------------------------------------------ *)

(* conv_f64 / conv_i64 are interpreters of Gen/Bounds.v, which srcgen extracts from
   tryConvertFloat64 / tryConvertInt64 on every run (kinds per clause, guards in source order with
   their comparison operators and operands, the per-kind (min, max) constants evaluated to integers,
   the operand of the final reflect conversion).  On the current source they coincide, for every
   kind and every input, with the hand-written transcription every theorem below is proved about;
   an edit of a constant, an operator, the guard order or the converted operand makes this fail
   (and with it every theorem of this file), while the interpreter keeps following the code. *)
Theorem C11_model_is_source : forall k,
  (forall bits, conv_f64 k bits = conv_f64_ref k bits) /\ (forall z, conv_i64 k z = conv_i64_ref k z).
Proof. exact (fun k => conj (conv_f64_is_ref k) (conv_i64_is_ref k)). Qed.
Print Assumptions C11_model_is_source.

Theorem C11_source_shape_recognised : Bounds.bounds_matched = true.
Proof. reflexivity. Qed.
Print Assumptions C11_source_shape_recognised.

(* ---- float64 -> integer kinds ---------------------------------------------------------- *)

(* Full statement (FALSE of the code, defect K6): an accepted float64 is finite, its real value
   is exactly the bound integer z, and int_min k <= z <= int_max k:

     forall k bits z, is_int_kind k = true -> conv_f64 k bits = Some (SInt z) ->
       B2R (f64_of_bits bits) = IZR z /\ int_min k <= z <= int_max k

   What holds: the same with the closed upper bound int_max k + 1 for the four 64-bit kinds
   ([slack k] = 1 for int, int64, uint, uint64 and 0 otherwise), and the bound integer is the
   exact value whenever that value is within the type's range. *)
Theorem C11_f64_to_int_exact_partial : forall k bits z,
  is_int_kind k = true -> conv_f64 k bits = Some (SInt z) ->
  exists z', is_finite (f64_of_bits bits) = true /\ B2R (f64_of_bits bits) = IZR z' /\
             int_min k <= z' <= int_max k + slack k /\ (z' <= int_max k -> z = z').
Proof. exact f64_to_int_exact_partial. Qed.
Print Assumptions C11_f64_to_int_exact_partial.

(* K6 witnesses: float64 2^63 is accepted for int64/int and binds -2^63; float64 2^64 is
   accepted for uint64/uint and binds 2^63. *)
Theorem C11_f64_int64_boundary_refuted :
  (is_finite (f64_of_bits bits_two63) = true /\ B2R (f64_of_bits bits_two63) = IZR two63 /\
   conv_f64 KInt64 bits_two63 = Some (SInt (- two63)) /\ conv_f64 KInt bits_two63 = Some (SInt (- two63))) /\
  (is_finite (f64_of_bits bits_two64) = true /\ B2R (f64_of_bits bits_two64) = IZR two64 /\
   conv_f64 KUint64 bits_two64 = Some (SInt two63) /\ conv_f64 KUint bits_two64 = Some (SInt two63)).
Proof. exact f64_int64_boundary. Qed.
Print Assumptions C11_f64_int64_boundary_refuted.

Theorem C11_f64_to_int_exact_refuted :
  ~ (forall k bits z, is_int_kind k = true -> conv_f64 k bits = Some (SInt z) ->
       B2R (f64_of_bits bits) = IZR z /\ int_min k <= z <= int_max k /\
       exists z', B2R (f64_of_bits bits) = IZR z' /\ z' <= int_max k).
Proof. exact f64_to_int_exact_refuted. Qed.
Print Assumptions C11_f64_to_int_exact_refuted.

(* every finite float64 whose value is an integer within the type's range is accepted, with
   exactly that value *)
Theorem C11_f64_to_int_complete : forall k bits z',
  is_int_kind k = true -> is_finite (f64_of_bits bits) = true -> B2R (f64_of_bits bits) = IZR z' ->
  int_min k <= z' <= int_max k -> conv_f64 k bits = Some (SInt z').
Proof. exact f64_to_int_complete. Qed.
Print Assumptions C11_f64_to_int_complete.

(* NaN and the infinities, fractions, and integers outside [int_min k, int_max k + slack k] are declined *)
Theorem C11_f64_to_int_declined : forall k bits,
  is_int_kind k = true ->
  is_finite (f64_of_bits bits) = false \/
  (forall z, B2R (f64_of_bits bits) <> IZR z) \/
  (exists z, B2R (f64_of_bits bits) = IZR z /\ (z < int_min k \/ int_max k + slack k < z)) ->
  conv_f64 k bits = None.
Proof. exact f64_to_int_declines. Qed.
Print Assumptions C11_f64_to_int_declined.

(* -0 binds 0 *)
Theorem C11_f64_neg_zero_binds_zero : forall k, is_int_kind k = true ->
  f64_of_bits neg_zero_bits64 = B754_zero true /\ conv_f64 k neg_zero_bits64 = Some (SInt 0).
Proof. exact f64_neg_zero. Qed.
Print Assumptions C11_f64_neg_zero_binds_zero.

(* ---- int64 -> integer kinds ------------------------------------------------------------ *)
Theorem C11_i64_to_int_exact_complete : forall k z z', is_int_kind k = true ->
  (conv_i64 k z = Some (SInt z') <-> z' = z /\ int_min k <= z <= int_max k).
Proof. exact i64_to_int_exact_complete. Qed.
Print Assumptions C11_i64_to_int_exact_complete.

(* ---- float64 -> float32 ---------------------------------------------------------------- *)
(* accepted iff not (|f| > MaxFloat32) (so NaN passes, the infinities do not); the result is the
   round-to-nearest-even binary32 of the real value, with the sign kept (also of zero) *)
Theorem C11_f64_to_f32_nearest : forall bits,
  let f := f64_of_bits bits in
  (is_nan_f f = true -> conv_f64 KFloat32 bits = Some (SF32 nan32_bits)) /\
  (is_inf_f f = true -> conv_f64 KFloat32 bits = None) /\
  (is_finite f = true -> (IZR max_float32_Z < Rabs (B2R f))%R -> conv_f64 KFloat32 bits = None) /\
  (is_finite f = true -> (Rabs (B2R f) <= IZR max_float32_Z)%R ->
     exists g : b32, conv_f64 KFloat32 bits = Some (SF32 (bits_of_f32 g)) /\ is_finite g = true /\
       B2R g = round radix2 (FLT_exp (-149) 24) ZnearestE (B2R f) /\ Bsign g = Bsign f).
Proof. exact f64_to_f32_nearest. Qed.
Print Assumptions C11_f64_to_f32_nearest.

(* the bit pattern that is bound decodes to that float (encoding then decoding, integer arithmetic) *)
Theorem C11_f32_bits_roundtrip : forall g : b32, dec32 (bits_of_f32 g) = fdec_of (-149) g.
Proof. exact dec32_bits_of_f32. Qed.
Print Assumptions C11_f32_bits_roundtrip.

(* ---- int64 -> float32 / float64 -------------------------------------------------------- *)
(* accepted iff z is exactly representable in binary32 (amd64 semantics of int64(float32(z)));
   the value is kept *)
Theorem C11_i64_to_f32_lossless : forall z, - two63 <= z < two63 ->
  (generic_format radix2 (FLT_exp (-149) 24) (IZR z) ->
     conv_i64 KFloat32 z = Some (SF32 (bits_of_f32 (i64_to_f32 z))) /\
     is_finite (i64_to_f32 z) = true /\ B2R (i64_to_f32 z) = IZR z) /\
  (~ generic_format radix2 (FLT_exp (-149) 24) (IZR z) -> conv_i64 KFloat32 z = None).
Proof. exact i64_to_f32_lossless. Qed.
Print Assumptions C11_i64_to_f32_lossless.

(* "exactly representable" in elementary terms: at most 24 significant bits *)
Theorem C11_representable32_iff_24_bits : forall a, 0 <= a ->
  (fits 24 a = true <-> generic_format radix2 (FLT_exp (-149) 24) (IZR a)).
Proof. exact fits_format32. Qed.
Print Assumptions C11_representable32_iff_24_bits.

(* int64 -> float64 is always accepted and rounds to nearest even (the doc comment "without
   precision loss" is wrong above 2^53; the property text is silent on this pair) *)
Theorem C11_i64_to_f64_nearest : forall z, - two63 <= z < two63 ->
  conv_i64 KFloat64 z = Some (SF64 (bits_of_f64 (i64_to_f64 z))) /\
  is_finite (i64_to_f64 z) = true /\
  B2R (i64_to_f64 z) = round radix2 (FLT_exp (-1074) 53) ZnearestE (IZR z).
Proof. exact i64_to_f64_nearest. Qed.
Print Assumptions C11_i64_to_f64_nearest.

(* ---- derived types and pointers of the same kind ---------------------------------------- *)
Theorem C11_same_kind_value_kept : forall t vt sv,
  s_id t <> s_id vt -> s_kind t = s_kind vt -> ids_ok vt = true ->
  try_convert (FScalar t) (DS vt sv) = Ok (Some (BScalar t sv)).
Proof. exact same_kind_value_kept. Qed.
Print Assumptions C11_same_kind_value_kept.

Theorem C11_pointer_value_kept : forall id elem vt sv,
  id <> s_id vt -> s_kind elem = s_kind vt ->
  try_convert (FPtr id elem) (DS vt sv) = Ok (Some (BPtr id elem sv)).
Proof. exact pointer_value_kept. Qed.
Print Assumptions C11_pointer_value_kept.

(* ---- what "not bound" is ---------------------------------------------------------------- *)
(* try_convert binds, or says "not convertible" (unmarshaler.go then keeps the value unchanged
   under its name among the unknown fields), or - only for a composite sent to a JSON-decoded
   target (struct, map, slice, pointer to struct; array as of the fix for F16) - fails with ErrInternal.
   It never panics; a scalar or nil never fails. *)
Theorem C11_declined_is_none_or_fail : forall T v,
  (exists b, try_convert T v = Ok (Some b)) \/ try_convert T v = Ok None \/
  (try_convert T v = Fail "internal" /\ exists id tbl id', v = DJ id tbl /\
     (T = FJson id' \/ exists e, T = FOther id' kind_array e)).
Proof. exact declined_is_none_or_fail. Qed.
Print Assumptions C11_declined_is_none_or_fail.

Theorem C11_scalar_never_fails : forall T v, (v = DNil \/ exists t sv, v = DS t sv) ->
  exists o, try_convert T v = Ok o.
Proof. exact scalar_never_fails. Qed.
Print Assumptions C11_scalar_never_fails.

(* ---- link to the check ------------------------------------------------------------------- *)
(* the oracle's integer decoder is Flocq's *)
Theorem C11_decoder_is_flocq : forall bits, dec64 bits = fdec_of (-1074) (f64_of_bits bits).
Proof. exact dec64_spec. Qed.
Print Assumptions C11_decoder_is_flocq.

(* the oracle's distance test accepts every correctly rounded binary32 *)
Theorem C11_distance_test_accepts_rounded : forall (g : b32) s m e,
  is_finite g = true -> 0 <= m -> Bsign g = s ->
  B2R g = round radix2 (FLT_exp (-149) 24) ZnearestE
            (if s then - (IZR m * bpow radix2 e) else IZR m * bpow radix2 e)%R ->
  round_ok 23 8 s m e (bits_of_f32 g) = true.
Proof. exact round_ok_sound32. Qed.
Print Assumptions C11_distance_test_accepts_rounded.

(* ---- which key a decoded field binds to (unmarshaler.go: definition keys of that name in All() order, then
   the custom keys of that name in registration order; Model/Unmarshal.bind_field) ----------------------- *)

(* EVERY value the rules accept is bound: if some key of the field's name accepts the value and every key tried
   before it declines, the field is bound to that key with exactly the value try_convert gives - for any number
   of same-named keys, on the definition or among the custom keys *)
Theorem C11_accepted_is_bound : forall c d k n v l1 key l2 b,
  is_placeholder v = false ->
  cands c d n = (l1 ++ key :: l2)%list -> List.Forall (declines v) l1 -> accepts v key b ->
  bind_field c d k n v = FTyped key b.
Proof. exact accepted_is_bound. Qed.
Print Assumptions C11_accepted_is_bound.

(* a bound value is the first accepting key's conversion of the decoded value, nothing else *)
Theorem C11_bound_is_first_accepting : forall c d k n v key b,
  bind_field c d k n v = FTyped key b ->
  exists l1 l2, cands c d n = (l1 ++ key :: l2)%list /\ List.Forall (declines v) l1 /\ accepts v key b.
Proof. exact bound_is_first_accepting. Qed.
Print Assumptions C11_bound_is_first_accepting.

(* a field left unknown (lenient) or rejected with ErrUnknownField (strict) was declined by EVERY key of its name *)
Theorem C11_unbound_was_declined_by_all : forall c d k n v,
  is_placeholder v = false ->
  (bind_field c d k n v = FUnknown v \/
   bind_field c d k n v = FFail {| fl_class := cls_field; fl_kind := k; fl_field := n |}) ->
  List.Forall (declines v) (cands c d n).
Proof. exact unbound_was_declined_by_all. Qed.
Print Assumptions C11_unbound_was_declined_by_all.

(* non-vacuity: 300 for the name "n" with an int8 key on the definition and int8, int64 keys among the custom
   keys - declined twice, bound by the third *)
Example C11_binding_example :
  let k8 := {| uk_key := {| k_id := 1; k_name := "n"; k_ty := 3 |}; uk_ty := FScalar (st 3%N KInt8) |} in
  let k8' := {| uk_key := {| k_id := 2; k_name := "n"; k_ty := 3 |}; uk_ty := FScalar (st 3%N KInt8) |} in
  let k64 := {| uk_key := {| k_id := 3; k_name := "n"; k_ty := 6 |}; uk_ty := FScalar (st 6%N KInt64) |} in
  let ko := {| uk_key := {| k_id := 4; k_name := "m"; k_ty := 6 |}; uk_ty := FScalar (st 6%N KInt64) |} in
  let d := {| ud_def := define 1000 0 "k" []; ud_keys := [ko; k8] |} in
  let c := {| u_defs := [d]; u_default := None; u_strict := true; u_custom := [k8'; ko; k64]; u_sentinels := [] |} in
  let v := DS ty_float64 (SF64 4643985272004935680) in
  cands c d "n" = [k8; k8'; k64] /\ is_placeholder v = false /\
  bind_field c d "k" "n" v = FTyped k64 (BScalar (st 6%N KInt64) (SInt 300)).
Proof. vm_compute. repeat split; reflexivity. Qed.

(* On every well-formed case outside the K6 boundary inputs, an observation that agrees with
   the model satisfies the specification [ok]. *)
Theorem C11_corr_implies_ok : forall c,
  in_domain c = true -> k6_boundary c = false -> corr c = true -> ok c = true.
Proof. exact corr_implies_ok. Qed.
Print Assumptions C11_corr_implies_ok.

(* non-vacuity: a float32 tie (2^24 + 1 rounds to even), the largest int64 that float32 holds,
   a fraction, and the K6 input on which model and code agree but the specification fails *)
Example C11_example :
  let f32 := st 12%N KFloat32 in let i8 := st 3%N KInt8 in let i64 := st 6%N KInt64 in
  let c1 := {| c_target := FScalar f32; c_src := DS ty_float64 (SF64 4715268810125344768);
               c_obs := OBound (TV f32 (SF32 1266679808)) |} in
  let c2 := {| c_target := FScalar f32; c_src := DS ty_int64 (SInt 9223371487098961920);
               c_obs := OBound (TV f32 (SF32 1593835519)) |} in
  let c3 := {| c_target := FScalar i8; c_src := DS ty_float64 (SF64 4638672431819522048);
               c_obs := ODeclined (Some (DS ty_float64 (SF64 4638672431819522048))) |} in
  let c4 := {| c_target := FScalar i64; c_src := DS ty_float64 (SF64 bits_two63);
               c_obs := OBound (TV i64 (SInt (- two63))) |} in
  forallb in_domain [c1; c2; c3; c4] = true /\
  map ok [c1; c2; c3; c4] = [true; true; true; false] /\
  map corr [c1; c2; c3; c4] = [true; true; true; true] /\
  map k6_boundary [c1; c2; c3; c4] = [false; false; false; true].
Proof. vm_compute. repeat split; reflexivity. Qed.
