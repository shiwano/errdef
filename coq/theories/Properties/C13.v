(* C13 — strict and lenient unmarshaling honour their contracts.
   Statements only; proofs in Proofs/C13Proofs.v.  The theorems are about the model's
   unmarshal on every configuration and every document; C13_corr_implies_ok ties them to
   the observation the check compares. *)
From Errdef Require Import Base.Str Base.Outcome Model.Core Model.Convert Model.Unmarshal Check.UM Check.C13
  Proofs.C10Proofs Proofs.C13Proofs Model.Resolver Model.ResolverGen Proofs.ResolverProofs Proofs.C13Resolver
  Model.UnmarshalGen Model.GoLite Model.UnmarshalGL Proofs.UnmarshalSrc.

Theorem C13_lenient_kind :
  (forall c m k t fs st cs u, u_strict c = false -> u_default c = None -> kind_known c k = false ->
     unmarshal c (DD m k t fs st cs u) = UFail [{| fl_class := cls_kind; fl_kind := k; fl_field := "" |}]) /\
  (forall c k dflt, u_strict c = false -> u_default c = Some dflt -> kind_known c k = false ->
     resolve_kind_u c k = UOk dflt) /\
  (forall c k d, find (fun d => str_eqb (d_kind (ud_def d)) k) (u_defs c) = Some d -> resolve_kind_u c k = UOk d).
Proof. exact (conj lenient_unknown_kind (conj lenient_default known_kind_first)). Qed.
Print Assumptions C13_lenient_kind.

Theorem C13_lenient_fields_never_fail : forall c m k t fs st cs u f,
  u_strict c = false ->
  match unmarshal c (DD m k t fs st cs u) with
  | UFail ffs => In f ffs -> fl_class f <> cls_field
  | _ => True
  end.
Proof. exact lenient_fields_never_fail. Qed.
Print Assumptions C13_lenient_fields_never_fail.

Theorem C13_lenient_unknown_retrievable : forall c m k t fs st cs u def e n v,
  u_strict c = false -> resolve_kind_u c k = UOk def ->
  unmarshal c (DD m k t fs st cs u) = UOk e ->
  In (n, v) fs -> registered c def n = false -> is_placeholder v = false ->
  In (n, v) (r_unknown e) /\ rf_get e (AKName n) <> None /\ In (AKName n) (rf_find_keys e n).
Proof. exact lenient_unknown_retrievable. Qed.
Print Assumptions C13_lenient_unknown_retrievable.

(* as of the fix for F12 the decoded fields are visited in name order and the first failure
   returns: the call fails, with ErrUnknownField carrying that name and kind unless a field
   at or before it in name order fails first; and exactly with it when no field of another
   name fails *)
Theorem C13_strict_unknown_field : forall c m k t fs st cs u def n v,
  u_strict c = true -> resolve_kind_u c k = UOk def ->
  In (n, v) fs -> registered c def n = false -> is_placeholder v = false ->
  exists f n' v', unmarshal c (DD m k t fs st cs u) = UFail [f] /\
                  In (n', v') fs /\ String.leb n' n = true /\ bind_field c def k n' v' = FFail f.
Proof. exact strict_unknown_field. Qed.
Print Assumptions C13_strict_unknown_field.

Theorem C13_strict_unknown_field_alone : forall c m k t fs st cs u def n v,
  u_strict c = true -> resolve_kind_u c k = UOk def ->
  In (n, v) fs -> registered c def n = false -> is_placeholder v = false ->
  (forall n' v' f', In (n', v') fs -> bind_field c def k n' v' = FFail f' -> n' = n) ->
  unmarshal c (DD m k t fs st cs u) = UFail [{| fl_class := cls_field; fl_kind := k; fl_field := n |}].
Proof. exact strict_unknown_field_alone. Qed.
Print Assumptions C13_strict_unknown_field_alone.

Theorem C13_strict_unknown_kind_even_with_default : forall c m k t fs st cs u,
  u_strict c = true -> kind_known c k = false ->
  unmarshal c (DD m k t fs st cs u) = UFail [{| fl_class := cls_kind; fl_kind := k; fl_field := "" |}].
Proof. exact strict_unknown_kind. Qed.
Print Assumptions C13_strict_unknown_kind_even_with_default.

Theorem C13_strict_success_has_only_placeholders : forall c m k t fs st cs u e n v,
  u_strict c = true -> unmarshal c (DD m k t fs st cs u) = UOk e -> In (n, v) (r_unknown e) ->
  v = DS {| s_id := 1; s_kind := KString |} (SStr redacted_str).
Proof. exact strict_success_only_placeholders. Qed.
Print Assumptions C13_strict_success_has_only_placeholders.

(* restoring a cause fails with ErrInternal only: unknown kinds / fields below the top
   level make the node an unknown cause instead *)
Theorem C13_cause_failures_are_internal : forall c d,
  match unmarshal_cause c d with UFail fs => fs = [internal_failure] | _ => True end.
Proof. exact cause_fail_internal. Qed.
Print Assumptions C13_cause_failures_are_internal.

(* the formal link between the run and the theorems: an observation that agrees with the model
   (UM.corr) satisfies the decision table the oracle evaluates (C13.ok), for every case -
   including the encoding of the restored error into the observation (sorting, value forms) *)
Theorem C13_corr_implies_ok : forall c, UM.corr c = true -> C13.ok c = true.
Proof. exact corr_implies_ok13. Qed.
Print Assumptions C13_corr_implies_ok.

(* Unmarshaler.resolveKind AS TRANSLATED FROM THE SOURCE in this run (Gen/GoLiteSrc.v, run by the GoLite interpreter
   with the primitives of Model/UnmarshalGL.v: "the resolver is a DefaultResolver", strict mode, ResolveKind,
   ResolveKindOrDefault, the ErrUnknownKind factory) computes, for every configuration and kind, the transcription
   every theorem here is about *)
Theorem C13_resolve_kind_is_source : forall n c k,
  um_run (S n) ".resolveKind" [VD (DU c); VStr k] = enc_udef (resolve_kind_u c k).
Proof. exact run_resolve_kind. Qed.
Print Assumptions C13_resolve_kind_is_source.

(* The kind resolution of the unmarshaler model is package resolver's, as interpreted from resolver/*.go on this
   run (Model/ResolverGen over Gen/ResolverSrc.v): without a default resolver, or in strict mode, it is
   ResolveKind of resolver.New(defs...) and a miss is ErrUnknownKind carrying the kind - even when a default
   exists; with a DefaultResolver in lenient mode it is ResolveKindOrDefault.  (wf: one identity, one definition.) *)
Theorem C13_kind_resolution_is_the_resolvers : forall c k, wf_defs (map rdef_of (u_defs c)) ->
  let r := g_new_resolver (map rdef_of (u_defs c)) in
  match u_default c, u_strict c with
  | Some dflt, false =>
      exists d, resolve_kind_u c k = UOk d /\
                rdef_of d = g_resolve_kind_or_default r (rdef_of dflt) k
  | _, _ =>
      match g_resolve_kind r k with
      | Some rd => exists d, resolve_kind_u c k = UOk d /\ rdef_of d = rd
      | None => resolve_kind_u c k = UFail [{| fl_class := cls_kind; fl_kind := k; fl_field := "" |}]
      end
  end.
Proof. exact resolve_kind_u_is_resolver. Qed.
Print Assumptions C13_kind_resolution_is_the_resolvers.

Example C13_example :
  let k := {| uk_key := {| k_id := 1; k_name := "n"; k_ty := 2 |}; uk_ty := FScalar {| s_id := 2; s_kind := KInt |} |} in
  let d := {| ud_def := define 1000 0 "k1" [ONoTrace]; ud_keys := [k] |} in
  let dflt := {| ud_def := define 1001 1 "dd" [ONoTrace]; ud_keys := [] |} in
  let strict := {| u_defs := [d]; u_default := Some dflt; u_strict := true; u_custom := []; u_sentinels := [] |} in
  let lenient := {| u_defs := [d]; u_default := Some dflt; u_strict := false; u_custom := []; u_sentinels := [] |} in
  let s := DS {| s_id := 1; s_kind := KString |} (SStr "x") in
  unmarshal strict (DD "m" "zz" "" [] [] [] "") = UFail [{| fl_class := cls_kind; fl_kind := "zz"; fl_field := "" |}] /\
  (exists e, unmarshal lenient (DD "m" "zz" "" [("n", s)] [] [] "") = UOk e /\ r_unknown e = [("n", s)]) /\
  unmarshal strict (DD "m" "k1" "" [("n", s)] [] [] "") = UFail [{| fl_class := cls_field; fl_kind := "k1"; fl_field := "n" |}].
Proof. vm_compute. repeat split; try reflexivity. eexists. split; reflexivity. Qed.
