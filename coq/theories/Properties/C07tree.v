(* C07 (tree renderers part) - every renderer that walks the pruned tree terminates.
   Error(), %s %v %q, %+v, the slog value / Node.LogValue and DebugStack only follow
   node.Causes of the tree that UnwrapTree returned.  Theorem C07_tree_build_total says that,
   for every cause graph under C06's guard G (cyclic graphs included), building that tree with
   the explicit fuel [fuel_bound g] never runs out of fuel: the result is a value of the
   inductive type [tree], i.e. finite.  The renderers are then structural recursions over that
   inductive value (as [has_cycle_node], [preorder], [tsize], [walk_node] in Model/Tree.v and
   Spec/Unfold.v already are); Coq's guard checker accepts exactly such definitions, and that
   acceptance is their termination proof.  The renderers' text is NOT modelled here (C18/C19),
   and json.Marshal is different (Node.MarshalJSON re-enters json.Marshal(err) for errdef nodes,
   finding K1) and is not covered by this file. *)
From Errdef Require Import Base.Str Model.Tree Spec.Unfold Check.C06 Proofs.C06Proofs.

Theorem C07_tree_build_total : forall g cs, G g ->
  (forall c, In (Some c) cs -> c < List.length g) ->
  exists ts vm, build_nodes (fuel_bound g) g cs [] = Some (ts, vm).
Proof.
  intros g cs (Hcl & Hnz & _ & Hrk) Hcs. apply build_nodes_total; auto.
  intros c Hc. split; [|apply measure_lt_bound]; auto.
Qed.
Print Assumptions C07_tree_build_total.

Theorem C07_unwrap_tree_total : forall g recv, G g -> recv < List.length g ->
  exists ts, unwrap_tree g recv = Some ts.
Proof. exact unwrap_tree_total. Qed.
Print Assumptions C07_unwrap_tree_total.

(* a structural traversal of the result visits finitely many nodes: as many as Walk yields *)
Theorem C07_tree_finite : forall ts, List.length (walk ts) = list_sum (map tsize ts).
Proof. exact walk_length. Qed.
Print Assumptions C07_tree_finite.
