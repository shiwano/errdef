(* C06 - the cause tree is the finite path-unfolding of the cause graph.
   Statements only; proofs are in Proofs/C06Proofs.v.
   Model: Model/Tree.v (buildNodes/buildNode with the address-keyed visited map whose slot
   [marker_key] is the cycle marker, Walk, HasCycle).  Specification: Spec/Unfold.v (Unf/UnfL,
   FlagsSound, preorder), written over node identities without any map or marker.
   Guard G (Spec/Unfold.v): child indices are in range; tracked keys differ from [marker_key]
   (no typed nil pointer, F3) and are injective on nodes (no zero-size pointer aliases, K5);
   every cycle passes through a tracked node (untracked nodes point only to tracked nodes or to
   untracked nodes of smaller index). *)
From Errdef Require Import Base.Str Model.Tree Spec.Unfold Check.C06 Proofs.C06Proofs.

(* The map model with slot [marker_key] behaves like the (key path, marker) model: same result
   for the same fuel, and the final map represents the final (path, marker). *)
Theorem C06_refines : forall g, keys_not_marker g ->
  forall fuel path n vm mk, abs vm path mk ->
    rel path (build_node fuel g n vm) (build_node_p fuel g path n mk).
Proof. exact refine_node. Qed.
Print Assumptions C06_refines.

(* An explicit fuel bound, (|g|+1)^2, suffices for every graph under G, cyclic ones included:
   UnwrapTree returns a finite inductive tree. *)
Theorem C06_terminates : forall g recv, G g -> recv < List.length g ->
  forall fuel, fuel_bound g <= fuel -> exists ts, build_cause_tree fuel g recv = Some ts.
Proof. exact terminates. Qed.
Print Assumptions C06_terminates.

(* the underlying measure: (tracked nodes not on the path) * (|g|+1) + rank of the node *)
Theorem C06_terminates_measure : forall g, closed g -> untracked_ranked g ->
  forall fuel kpath n mk, n < List.length g -> measure g kpath n < fuel ->
    build_node_p fuel g kpath n mk <> None.
Proof. exact build_node_p_total. Qed.
Print Assumptions C06_terminates_measure.

(* The result is the path-unfolding: children are the non-nil causes in order, an occurrence of
   a tracked node already on the path from the top is dropped. *)
Theorem C06_shape : forall g recv nd fuel ts, G g -> nth_error g recv = Some nd ->
  build_cause_tree fuel g recv = Some ts ->
  exists ds, UnfL g [] (causes_of nd) (map erase ts) ds.
Proof.
  intros g recv nd fuel ts (_ & Hnz & Hinj & _) Hn H.
  destruct (cause_tree_spec g recv nd fuel ts Hnz Hinj Hn H) as (ds & HU & _). eauto.
Qed.
Print Assumptions C06_shape.

(* ... and the unfolding is unique, so the tree IS the path-unfolding. *)
Theorem C06_unf_functional : forall g,
  (forall path n os ds, Unf g path n os ds -> forall os' ds', Unf g path n os' ds' -> os = os' /\ ds = ds') /\
  (forall path cs ss ds, UnfL g path cs ss ds -> forall ss' ds', UnfL g path cs ss' ds' -> ss = ss' /\ ds = ds').
Proof. exact Unf_functional. Qed.
Print Assumptions C06_unf_functional.

(* HasCycle is true exactly when some occurrence was dropped. *)
Theorem C06_has_cycle_iff_dropped : forall g recv nd fuel ts, G g -> nth_error g recv = Some nd ->
  build_cause_tree fuel g recv = Some ts ->
  exists ds, UnfL g [] (causes_of nd) (map erase ts) ds /\ (has_cycle ts = true <-> ds <> []).
Proof.
  intros g recv nd fuel ts (_ & Hnz & Hinj & _) Hn H.
  destruct (cause_tree_spec g recv nd fuel ts Hnz Hinj Hn H) as (ds & HU & Hc & _). eauto.
Qed.
Print Assumptions C06_has_cycle_iff_dropped.

(* Every flagged node is a tracked error one occurrence of which is dropped beneath itself. *)
Theorem C06_flag_sound : forall g recv fuel ts, G g ->
  build_cause_tree fuel g recv = Some ts -> Forall (FlagsSound g []) ts.
Proof. intros g recv fuel ts (_ & Hnz & Hinj & _). exact (flag_sound g recv fuel ts Hnz Hinj). Qed.
Print Assumptions C06_flag_sound.

(* If the unfolding drops nothing (no cycle; sharing allowed) nothing is flagged, and the tree
   is that unfolding, in which a shared node appears under each of its parents. *)
Theorem C06_sharing_not_flagged : forall g recv nd fuel ts ss, G g -> nth_error g recv = Some nd ->
  build_cause_tree fuel g recv = Some ts ->
  UnfL g [] (causes_of nd) ss [] -> ss = map erase ts /\ has_cycle ts = false.
Proof. intros g recv nd fuel ts ss (_ & Hnz & Hinj & _). exact (sharing_not_flagged g recv nd fuel ts ss Hnz Hinj). Qed.
Print Assumptions C06_sharing_not_flagged.

(* Walk yields every node once, in depth-first pre-order, with its depth; a consumer that
   breaks after k elements has seen the first k. *)
Theorem C06_walk_preorder : forall ts,
  walk ts = preorder_all ts /\ List.length (walk ts) = list_sum (map tsize ts) /\
  forall k, walk_break k ts = firstn_or_all k (preorder_all ts).
Proof. intros ts. exact (conj (walk_preorder ts) (conj (walk_length ts) (fun k => walk_break_firstn k ts))). Qed.
Print Assumptions C06_walk_preorder.

(* The boolean checker used by the oracle decides the relation. *)
Theorem C06_checker_decides : forall g path,
  (forall n s ds, chk g path n s = Some ds <-> Unf g path n (Some s) ds) /\
  (forall cs ss ds, chk_list g path cs ss = Some ds <-> UnfL g path cs ss ds) /\
  (forall t, flags_soundb g path t = true -> FlagsSound g path t) /\
  (forall t n ds, Unf g path n (Some (erase t)) ds -> FlagsSound g path t -> flags_soundb g path t = true).
Proof.
  intros g path. exact (conj (chk_iff g path) (conj (chk_list_iff g path)
    (conj (fun t => flags_soundb_sound g t path) (fun t n ds => flags_soundb_complete g t path n ds)))).
Qed.
Print Assumptions C06_checker_decides.

(* G's exclusion "key <> marker_key" is necessary: D.Wrap(typed nil pointer) satisfies every other
   clause of G, nothing is dropped, yet the node is flagged and HasCycle is true (F3). *)
Theorem C06_zero_key_refuted :
  closed g_zero /\ keys_injective g_zero /\ untracked_ranked g_zero /\
  unwrap_tree g_zero 1 = Some [Node 0 true []] /\
  has_cycle [Node 0 true []] = true /\
  UnfL g_zero [] [Some 0] (map erase [Node 0 true []]) [] /\
  ~ FlagsSound g_zero [] (Node 0 true []).
Proof. exact zero_key_refuted. Qed.
Print Assumptions C06_zero_key_refuted.

(* G's exclusion "keys injective" is necessary: two nodes of different type with one address
   (pointers to zero-size types): the second is dropped although it is not on the path (K5). *)
Theorem C06_alias_refuted :
  closed g_alias /\ keys_not_marker g_alias /\ untracked_ranked g_alias /\
  unwrap_tree g_alias 2 = Some [Node 0 true []] /\
  UnfL g_alias [] [Some 0] [SNode 0 [SNode 1 []]] [] /\
  forall ds, ~ UnfL g_alias [] [Some 0] (map erase [Node 0 true []]) ds.
Proof. exact alias_refuted. Qed.
Print Assumptions C06_alias_refuted.

(* Link to the check: under G, an observation that agrees with the model satisfies the oracle. *)
Theorem C06_corr_implies_ok : forall c, G (c_graph c) -> corr c = true -> ok c = true.
Proof. exact corr_implies_ok. Qed.
Print Assumptions C06_corr_implies_ok.

(* non-vacuity: a graph under G with a 2-cycle through an errdef node, sharing, a value-kinded
   node and a nil entry; receiver = node 4 *)
Example C06_example :
  let g := [ gp 1%N (UMulti [Some 1; None; Some 2]);
             ge 2%N [Some 0];
             {| g_key := None; g_unwrap := USingle (Some 3); g_errdef := false |};
             gp 3%N UNone;
             ge 4%N [Some 0; Some 3] ] in
  let ts := [Node 0 true [Node 1 false []; Node 2 false [Node 3 false []]]; Node 3 false []] in
  let c := {| c_graph := g; c_recv := 4; c_panic := false; c_tree := ts; c_has_cycle := true;
              c_walk := [(0, 0); (1, 1); (1, 2); (2, 3); (0, 3)]; c_break := 2;
              c_walk_break := [(0, 0); (1, 1)]; c_utf := Some ts |} in
  Gb g = true /\ unwrap_tree g 4 = Some ts /\ corr c = true /\ ok c = true /\
  chk_list g [] [Some 0; Some 3] (map erase ts) = Some [0].
Proof. vm_compute. repeat split; reflexivity. Qed.
