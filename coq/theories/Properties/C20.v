(* C20 — fields collections are self-consistent: native fields (theorems C20_native_...) and the
   fields of restored errors (theorems C20_restored_...).
   Statements only; proofs in Proofs/C20Proofs.v. *)
From Coq Require Import Sorting.Sorted Sorting.Permutation.
From Errdef Require Import Base.Str Base.Outcome Model.Core Model.GoErrors Model.Prog Model.Convert Model.Unmarshal
  Check.C03 Check.C20 Check.UM Proofs.C20Proofs Proofs.C12Proofs Proofs.C20rProofs.

(* invariant: key ids unique, indices strictly increasing and bounded by lastIndex;
   established by newFields, preserved by set, and true of every factory any program creates *)
Theorem C20_native_inv :
  wf_fields fields_empty /\ (forall k v f, wf_fields f -> wf_fields (f_set k v f)) /\
  (forall p d, In d (s_defs (run p)) -> wf_fields (d_fields d)).
Proof. exact (conj wf_empty (conj wf_set native_inv)). Qed.
Print Assumptions C20_native_inv.

(* Len = number of pairs of All; IsZero iff Len = 0; every pair of All is found by Get
   with the same value and by FindKeys under its name; FindKeys returns only keys of
   that name (and only keys All yields); Get reports absence for a key that was never set *)
Theorem C20_native_coherent : forall f, wf_fields f ->
  f_len f = List.length (f_all f) /\
  (f_is_zero f = true <-> f_len f = 0) /\
  (forall k v, In (k, v) (f_all f) -> f_get f k = Some v /\ In k (f_find_keys f (k_name k))) /\
  (forall n k, In k (f_find_keys f n) -> k_name k = n /\ exists v, In (k, v) (f_all f)) /\
  (forall k, ~ In (k_id k) (map (fun kv : key * fval => k_id (fst kv)) (f_all f)) -> f_get f k = None).
Proof. exact native_coherent. Qed.
Print Assumptions C20_native_coherent.

(* All() = the keys in the order they were last written, for every option sequence *)
Theorem C20_all_is_last_write_order : forall a org kind os,
  map (fun kv => (k_id (fst kv), fv_repr (snd kv))) (f_all (d_fields (define a org kind os))) = write_order os.
Proof. exact all_is_write_order. Qed.
Print Assumptions C20_all_is_last_write_order.

(* the order is the same for every iteration order of the underlying Go map *)
Theorem C20_order_independent_of_map_iteration : forall f l',
  wf_fields f -> Permutation (f_data f) l' -> sort_by_idx (f_data f) = sort_by_idx l'.
Proof. intros f l' W P. apply order_independent_of_iteration; [exact P|now apply wf_nodup_idx]. Qed.
Print Assumptions C20_order_independent_of_map_iteration.

(* ---------- restored errors (unmarshaler/field.go) ---------- *)

(* a restored error exposes every decoded field exactly once, either typed or unknown:
   the names of its entries are a permutation of the decoded names, pairwise distinct,
   with distinct key ids among the typed ones - for every configuration and document *)
Theorem C20_restored_partition : forall c m k t fs st cs u e def,
  resolve_kind_u c k = UOk def -> keys_wf c def -> NoDup (map fst fs) ->
  unmarshal c (DD m k t fs st cs u) = UOk e ->
  Permutation (map e_name (entries e)) (map fst fs) /\ rwf e.
Proof. exact restored_partition. Qed.
Print Assumptions C20_restored_partition.

(* the same coherence equations as for native fields; Get reports absence for a name that
   does not occur; FindKeys returns only keys of that name *)
Theorem C20_restored_coherent : forall e, rwf e ->
  rf_len e = List.length (rf_all e) /\
  (rf_is_zero e = true <-> rf_len e = 0) /\
  (forall a v, In (a, v) (rf_all e) -> rf_get e a = Some v /\ In a (rf_find_keys e (ak_name a))) /\
  (forall n a, In a (rf_find_keys e n) -> ak_name a = n /\ exists v, In (a, v) (rf_all e)) /\
  (forall n, ~ In n (map e_name (entries e)) -> rf_get e (AKName n) = None /\ rf_find_keys e n = []).
Proof. exact restored_coherent. Qed.
Print Assumptions C20_restored_coherent.

(* All() of restored fields is one fixed order (sorted by name): identical for every
   permutation of the entries, and therefore for every unmarshaling of the same input *)
Theorem C20_restored_order_fixed :
  (forall l l', Permutation l l' -> NoDup (map e_name l) -> sort_entries l = sort_entries l') /\
  (forall c m k t fs fs' st cs u e e' def,
     resolve_kind_u c k = UOk def -> keys_wf c def -> NoDup (map fst fs) -> Permutation fs fs' ->
     unmarshal c (DD m k t fs st cs u) = UOk e -> unmarshal c (DD m k t fs' st cs u) = UOk e' ->
     rf_all e = rf_all e' /\ rf_len e = rf_len e').
Proof.
  split; [exact sort_perm_invariant|]. intros c m k t fs fs' st cs u e e' def _ _ Hn P E E'.
  now rewrite (restored_all_deterministic c m k t fs fs' st cs u e e' Hn P E E').
Qed.
Print Assumptions C20_restored_order_fixed.

Example C20_example :
  let ka := {| k_id := 1; k_name := "a"; k_ty := 1 |} in
  let kb := {| k_id := 2; k_name := "a"; k_ty := 2 |} in
  let kc := {| k_id := 3; k_name := "c"; k_ty := 1 |} in
  let v s := {| fv_repr := s; fv_plus := s; fv_json := s |} in
  let os := [OField ka (v "1"); OField kb (v "2"); OField kc (v "3"); OField ka (v "4")] in
  let f := d_fields (define 1 0 "k" os) in
  wf_fields f /\ map (fun kv => k_id (fst kv)) (f_all f) = [2; 3; 1]%N /\
  map k_id (f_find_keys f "a") = [2; 1]%N /\ write_order os = [(2%N, "2"); (3%N, "3"); (1%N, "4")].
Proof. split; [apply wf_apply_opts, wf_empty|]. vm_compute. repeat split; reflexivity. Qed.
