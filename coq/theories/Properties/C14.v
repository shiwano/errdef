(* C14 — Resolver: first registered definition wins, deterministically.
   Statements only; proofs are in Proofs/ResolverProofs.v and Proofs/C14Proofs.v. *)
From Errdef Require Import Base.Str Base.Outcome Model.Value Model.Resolver Model.ResolverGen
  Proofs.ResolverProofs Check.C14 Proofs.C14Proofs.

(* ---- the model is regenerated from the source ------------------------------------------ *)

(* The functions the check evaluates (Model/ResolverGen.v) are interpreters of Gen/ResolverSrc.v, which srcgen
   extracts from resolver/*.go on every run: the predicate of slices.CompactFunc in New, first-or-last-wins in
   byKind, the map lookup of ResolveKind, how ResolveField reaches ResolveFieldFunc (with or without unwrapping a
   FieldValue), the loop of ResolveFieldFunc, and for every DefaultResolver method which method of the wrapped
   resolver it calls and what it returns on a miss.  On the current source they coincide, for every input, with
   the transcription Model/Resolver.v about which the theorems below are stated; an edit of any of these
   functions makes this theorem (or the shape theorem) fail while the interpreters keep following the code
   wherever the new shape is one they know (compaction by kind, last-wins, no unwrapping). *)
Theorem C14_model_is_source :
  (forall defs, wf_defs defs -> g_new_resolver defs = new_resolver defs) /\
  (forall r k, g_resolve_kind r k = resolve_kind r k) /\
  (forall r key eq, g_resolve_field_func r key eq = resolve_field_func (r_defs r) key eq) /\
  (forall r key want, g_resolve_field r key want = resolve_field r key want) /\
  (forall r d k, g_resolve_kind_or_default r d k = resolve_kind_or_default r d k) /\
  (forall r d key want, g_resolve_field_or_default r d key want = resolve_field_or_default r d key want) /\
  (forall r d key eq, g_resolve_field_func_or_default r d key eq
                      = or_default_out d (resolve_field_func (r_defs r) key eq)).
Proof. exact model_is_source. Qed.
Print Assumptions C14_model_is_source.

(* every function of the package had a shape the translator knows; New works on a clone of its argument;
   WithDefault wires the wrapped resolver and the default; DefaultResolver's ResolveKind / ResolveField /
   ResolveFieldFunc hand their arguments to the same method of the wrapped resolver; Default returns the default *)
Theorem C14_source_shape_recognised : source_shape_ok = true.
Proof. exact source_shape. Qed.
Print Assumptions C14_source_shape_recognised.

(* ResolveKind(k) = the first definition in registration order whose kind is k,
   for every registration list (duplicates, equal kinds, any order). *)
Theorem C14_kind_first : forall defs k, wf_defs defs ->
  resolve_kind (new_resolver defs) k = find (fun d => str_eqb (rd_kind d) k) defs.
Proof. exact resolve_kind_first. Qed.
Print Assumptions C14_kind_first.

Theorem C14_kind_not_found_iff : forall defs k, wf_defs defs ->
  (resolve_kind (new_resolver defs) k = None <-> forall d, In d defs -> rd_kind d <> k).
Proof. exact resolve_kind_none_iff. Qed.
Print Assumptions C14_kind_not_found_iff.

(* ResolveField(key, want) = the first definition in registration order that has
   the key with a value equal to want (raw or wrapped in one FieldValue); never a panic. *)
Theorem C14_field_first : forall defs key want,
  wf_defs defs -> defs_ok defs -> want_ok want = true ->
  resolve_field (new_resolver defs) key want
  = Ok (find (fun d => match rd_get d key with
                       | Some (_, v) => go_eq v (unwrap1 want) | None => false end) defs).
Proof. exact resolve_field_first. Qed.
Print Assumptions C14_field_first.

(* FieldValue.Equal is total and is Go equality / deep equality, for every stored
   value (of static type T, including T = any) and every other Go value. *)
Theorem C14_equal_total_and_correct : forall T stored other,
  stored_ok T stored = true -> not_fv other = true ->
  fv_equal T stored other = Ok (go_eq stored other).
Proof. exact fv_equal_raw. Qed.
Print Assumptions C14_equal_total_and_correct.

(* the OrDefault forms return the default exactly when the strict lookup fails *)
Theorem C14_or_default : forall (dflt : rdef) o r,
  or_default dflt o = r <-> (exists a, o = Some a /\ r = a) \/ (o = None /\ r = dflt).
Proof. exact (@or_default_iff rdef). Qed.
Print Assumptions C14_or_default.

(* Link to the check: on the whole input domain the model computes the
   specification, so an observation that agrees with the model satisfies C14. *)
Theorem C14_model_is_spec : forall c, wf_defs (c_defs c) -> in_domain c = true -> model c = spec c.
Proof. exact model_is_spec. Qed.
Print Assumptions C14_model_is_spec.

Theorem C14_corr_implies_ok : forall c, wf_defs (c_defs c) -> corr c = true -> ok c = true.
Proof. exact corr_implies_ok. Qed.
Print Assumptions C14_corr_implies_ok.

(* non-vacuity: duplicates, equal kinds, an any-typed field, a composite value *)
Example C14_example :
  let a := {| rd_id := 1; rd_kind := "k"; rd_fields := [(7%N, (SAny, RInt ty_int 1))] |} in
  let b := {| rd_id := 2; rd_kind := "k"; rd_fields := [(7%N, (SAny, RStr ty_string "x"));
                                                         (8%N, (STy 100%N, RComp 100%N false "[1 2]"))] |} in
  let c := {| c_defs := [a; a; b; a]; c_default := a; c_lookup := LField 7%N (RFV (RStr ty_string "x"));
              c_obs := RFound 2%N |} in
  in_domain c = true /\ ok c = true /\ corr c = true /\ model c = RFound 2%N.
Proof. vm_compute. repeat split; reflexivity. Qed.
