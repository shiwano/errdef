(* C02 — wrapping keeps every cause reachable; nil in means nil out; messages compose.
   Statements only; proofs in Proofs/C02Proofs.v. *)
From Errdef Require Import Base.Str Model.Core Model.GoErrors Model.Prog Check.C02 Proofs.C02Proofs.

(* nil in, nil out - for every factory, address and stack *)
Theorem C02_nil_in_nil_out :
  (forall a d stk, c_wrap a d None stk = None) /\
  (forall a d ref stk, c_wrapf a d None ref stk = None) /\
  (forall a d c stk, c_wrap a d (Some c) stk <> None) /\
  (forall a d c ref stk, c_wrapf a d (Some c) ref stk <> None) /\
  (forall a d cs stk, c_join a d cs stk = None <-> forall x, In x cs -> x = None) /\
  (forall s f c stk, fst (c_recover s f c stk) = None <-> exists n, eval_cb s c (s_next s) = (Normal None, n)).
Proof.
  split; [reflexivity|]. split; [reflexivity|]. split; [discriminate|]. split; [discriminate|].
  exact (conj join_nil_iff recover_nil_iff).
Qed.
Print Assumptions C02_nil_in_nil_out.

(* Unwrap() yields exactly the causes given: the single cause for Wrap/Wrapf,
   the non-nil arguments in order for Join (any number of nils anywhere) *)
Theorem C02_unwrap_exact :
  (forall a d c stk e, c_wrap a d (Some c) stk = Some e -> def_unwrap e = [c] /\ def_cause e = Some c) /\
  (forall a d c ref stk e, c_wrapf a d (Some c) ref stk = Some e -> def_unwrap e = [c] /\ def_cause e = Some c) /\
  (forall a d cs stk e, c_join a d cs stk = Some e -> def_unwrap e = somes cs).
Proof. split; [now intros * [= <-]|]. split; [now intros * [= <-]|exact unwrap_join]. Qed.
Print Assumptions C02_unwrap_exact.

(* errors.Is / errors.As reach every cause and everything beneath it *)
Theorem C02_reach_all :
  (forall a d c stk e, c_wrap a d (Some c) stk = Some e -> reach_sub c e) /\
  (forall a d c ref stk e, c_wrapf a d (Some c) ref stk = Some e -> reach_sub c e) /\
  (forall a d cs stk e c, c_join a d cs stk = Some e -> In (Some c) cs -> reach_sub c e) /\
  (forall c r t, reach_sub c r ->
     errors_is r c = true /\ (errors_is c t = true -> errors_is r t = true)) /\
  (forall p c r, reach_sub c r -> as_first p c <> None -> as_first p r <> None).
Proof.
  split; [intros * [= <-]; apply ProgFacts.reach_cause|]. split; [intros * [= <-]; apply ProgFacts.reach_cause|].
  exact (conj join_reaches (conj reach_all ProgFacts.as_first_mono)).
Qed.
Print Assumptions C02_reach_all.

(* messages compose as documented (Sprintf itself is the stdlib oracle [ref]) *)
Theorem C02_messages :
  (forall a d m stk e, c_new a d m stk = Some e -> err_msg e = m) /\
  (forall a d f n ref stk e, c_errorf a d f n ref stk = Some e -> err_msg e = match n with O => f | _ => ref end) /\
  (forall a d c stk e, c_wrap a d (Some c) stk = Some e -> err_msg e = err_msg c) /\
  (forall a d c ref stk e, c_wrapf a d (Some c) ref stk = Some e -> err_msg e = (ref ++ ": " ++ err_msg c)%string) /\
  (forall a d cs stk e, c_join a d cs stk = Some e -> err_msg e = join nl (map err_msg (somes cs))).
Proof. repeat (split; [now intros * [= <-]|]). exact msg_join. Qed.
Print Assumptions C02_messages.

(* Link to the check: the contract the oracle evaluates on the observed
   behaviour is met by the modelled statement in every program state.
   (The pool-index bookkeeping of the oracle - idx_of - is not covered by a theorem.) *)
Theorem C02_contract_sound : forall s x isnil msg causes,
  contract s x = Some (isnil, msg, causes) ->
  match result_of s x with
  | None => isnil = true
  | Some e => isnil = false /\ err_msg e = msg /\ def_unwrap e = causes /\
              forall c, In c causes -> reach_sub c e
  end.
Proof. exact contract_sound. Qed.
Print Assumptions C02_contract_sound.

Example C02_example :
  let p := [SDefine "k" [ONoTrace]; SLeaf "l1" "*errors.errorString"; SLeaf "l2" "*errors.errorString";
            SJoin 0 [None; Some 0; None; Some 1] []; SWrapf 0 (Some 2) "ctx 1" []; SJoin 0 [None; Some 3] []] in
  let s := run p in
  prog_ok p = true /\
  map (fun o => match o with Some e => err_msg e | None => "" end) (s_errs s)
    = ["l1"; "l2"; cat ["l1"; ch 10; "l2"]; cat ["ctx 1: l1"; ch 10; "l2"]; cat ["ctx 1: l1"; ch 10; "l2"]] /\
  o_is (model_obs (s_errs s) (nth 4 (s_errs s) None)) = [true; true; true; true; true].
Proof. vm_compute. repeat split; reflexivity. Qed.
