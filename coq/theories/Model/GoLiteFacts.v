(* Generic facts about the GoLite interpreter: statement accessors (to name a loop body of a generated
   function without copying it), environments of a known shape ([env_is], [env_open]), and a rule for
   `for ... range` loops ([range_loop_rule]). *)
From Coq Require Import String List ZArith Bool.
From Errdef Require Import Model.GoLite.
Import ListNotations.
Local Open Scope string_scope.

Fixpoint seq_nth (s : stmt) (i : nat) : stmt :=
  match i, s with
  | O, SSeq a _ => a
  | O, _ => s
  | S j, SSeq _ b => seq_nth b j
  | S _, _ => SSkip
  end.
Definition range_body (s : stmt) : stmt := match s with SRange _ _ _ b => b | _ => SSkip end.
Definition if_then (s : stmt) : stmt := match s with SIf _ _ t _ => t | _ => SSkip end.
Definition fn_body (f : fundef) : stmt := snd f.
Definition fn_names (f : fundef) : list string := fst (fst f) ++ snd (fst f).

Section Facts.
Context {D : Type}.
Notation val := (value D).

Definition slot (x : string) (e : env D) : val := match lookup D x e with Some v => v | None => VNil end.

(* An environment with the variables [names], no name twice, of which some slots [known] are known, is a list of that
   shape with those entries: [env_open] turns it into one, the other entries universally quantified. *)
Fixpoint forall_env (names : list string) (known : env D) (P : env D -> Prop) : Prop :=
  match names with
  | [] => P []
  | x :: r =>
      match lookup D x known with
      | Some a => forall_env r known (fun e => P ((x, a) :: e))
      | None => forall a, forall_env r known (fun e => P ((x, a) :: e))
      end
  end.

Lemma lookup_in x a (e : env D) : lookup D x e = Some a -> In (x, a) e.
Proof.
  induction e as [|[y b] r IH]; cbn; [discriminate|]. destruct (String.eqb x y) eqn:E; [|auto].
  apply String.eqb_eq in E. intros [= ->]. left. now subst.
Qed.

Lemma env_open_in names : NoDup names -> forall known P, forall_env names known P ->
  forall e, map fst e = names -> Forall (fun p => In (fst p) names -> slot (fst p) e = snd p) known -> P e.
Proof.
  induction 1 as [|x r Hx _ IH]; intros known P H [|[y b] e] E K; try discriminate; [exact H|].
  injection E as -> E. cbn [forall_env] in H.
  assert (K' : Forall (fun p => In (fst p) r -> slot (fst p) e = snd p) known).
  { eapply Forall_impl; [|exact K]. intros p Hp Hin. rewrite <- Hp by now right. unfold slot. cbn.
    destruct (String.eqb (fst p) x) eqn:Ex; [|reflexivity]. apply String.eqb_eq in Ex. now subst. }
  destruct (lookup D x known) as [a|] eqn:L.
  - apply lookup_in in L. rewrite Forall_forall in K. specialize (K _ L (or_introl eq_refl)).
    unfold slot in K. cbn in K. rewrite String.eqb_refl in K. subst b. exact (IH _ _ H e E K').
  - exact (IH _ _ (H b) e E K').
Qed.

Definition env_is (names : list string) (known : env D) (e : env D) : Prop :=
  map fst e = names /\ Forall (fun p => slot (fst p) e = snd p) known.

Lemma env_open names known P : NoDup names -> forall_env names known P ->
  forall e, map fst e = names -> Forall (fun p => slot (fst p) e = snd p) known -> P e.
Proof. intros Hn H e E K. apply (env_open_in names Hn known P H e E). eapply Forall_impl; [|exact K]. auto. Qed.

Lemma map_set_fresh ext k x (l : list (val * val)) :
  Forall (fun kv => val_eqb D ext k (fst kv) = Some false) l -> map_set D ext k x l = Some (l ++ [(k, x)])%list.
Proof.
  induction 1 as [|[k' x'] r E _ IH]; cbn; [reflexivity|]. cbn in E. now rewrite E, IH.
Qed.
End Facts.

(* `for k, v := range l { step }` against a fold over an abstract state: [f s a] says what one pass of the body does in
   state [s] on element [a] (go on, break, return, panic, leave the fragment); [R todo s] is the invariant on the environment while the
   elements [todo] are still to come, [Rb b] what holds after a break.  One pass of the body is all a loop has to be
   run for. *)
Section RangeRule.
Context {D : Type} (step : env D -> ires (env D * ctl D)) (k v : string).
Context {S B A : Type} (enc : A -> value D) (R : list A -> S -> env D -> Prop) (Rb : B -> env D -> Prop).

Inductive lout := LGo (s : S) | LBrk (b : B) | LRet (vs : list (value D)) | LPanic (w : string) | LStuck (w : string).

Variable f : S -> A -> lout.

Fixpoint lfold (s : S) (l : list A) : lout :=
  match l with
  | [] => LGo s
  | a :: r => match f s a with LGo s' => lfold s' r | o => o end
  end.

Definition body_post (todo : list A) (o : lout) (res : ires (env D * ctl D)) : Prop :=
  match o with
  | LGo s => exists en ct, res = IOk (en, ct) /\ (ct = CNext \/ ct = CCont) /\ R todo s en
  | LBrk b => exists en, res = IOk (en, CBrk) /\ Rb b en
  | LRet vs => exists en, res = IOk (en, CRet vs)
  | LPanic w => res = IPanic w
  | LStuck w => res = IStuck w
  end.

Definition loop_post (o : lout) (res : ires (env D * ctl D)) : Prop :=
  match o with
  | LGo s => exists en, res = IOk (en, CNext) /\ R [] s en
  | LBrk b => exists en, res = IOk (en, CNext) /\ Rb b en
  | LRet vs => exists en, res = IOk (en, CRet vs)
  | LPanic w => res = IPanic w
  | LStuck w => res = IStuck w
  end.

Lemma body_go todo s en ct : ct = CNext \/ ct = CCont -> R todo s en -> body_post todo (LGo s) (IOk (en, ct)).
Proof. intros Hc H. exists en, ct. auto. Qed.

Hypothesis Hstep : forall a todo s i en, R (a :: todo) s en ->
  body_post todo (f s a) (step (bind1 D v (enc a) (bind1 D k (VInt i) en))).

Lemma range_loop_rule l : forall s i en, R l s en ->
  loop_post (lfold s l) (range_loop D step k v i (map enc l) en).
Proof.
  induction l as [|a r IH]; intros s i en H; cbn [map range_loop lfold].
  - exists en. split; [reflexivity|exact H].
  - specialize (Hstep a r s i en H). destruct (f s a) as [s'|b|vs|w|w]; cbn in Hstep |- *.
    + destruct Hstep as (en' & ct & -> & [-> | ->] & H'); apply IH, H'.
    + destruct Hstep as (en' & -> & H'). exists en'. split; [reflexivity|exact H'].
    + destruct Hstep as (en' & ->). exists en'. reflexivity.
    + rewrite Hstep. reflexivity.
    + rewrite Hstep. reflexivity.
Qed.
End RangeRule.
Arguments lout : clear implicits.
Arguments body_post : simpl never. Arguments loop_post : simpl never.
Arguments LGo {D S B} s. Arguments LBrk {D S B} b. Arguments LRet {D S B} vs. Arguments LPanic {D S B} w. Arguments LStuck {D S B} w.

Definition if_else (s : stmt) : stmt := match s with SIf _ _ _ e => e | _ => SSkip end.

Section Positional.
Context {D : Type}.
Notation val := (value D).

Fixpoint upd (i : nat) (x : val) (l : list val) : list val :=
  match i, l with
  | _, [] => []
  | O, _ :: r => x :: r
  | S j, y :: r => y :: upd j x r
  end.

Lemma upd_length i x l : length (upd i x l) = length l.
Proof. revert i; induction l as [|y r IH]; intros [|j]; simpl; auto. Qed.

Lemma ibind_ok {A B} (a : A) (f : A -> ires B) : ibind (IOk a) f = f a.
Proof. reflexivity. Qed.
End Positional.
