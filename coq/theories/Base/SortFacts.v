(* Facts about sorted lists and permutations, and the theory of an insertion sort given by its two equations. *)
From Coq Require Import Sorting.Permutation Sorting.Sorted.
From Errdef Require Import Base.Str.

Lemma SSorted_map_impl {A B} (f : A -> B) (R : B -> B -> Prop) (Q : A -> A -> Prop) l :
  (forall a b, R (f a) (f b) -> Q a b) -> StronglySorted R (map f l) -> StronglySorted Q l.
Proof.
  intros H. induction l as [|a r IH]; intros S; [constructor|]. inversion S as [|? ? Sr Fa]; subst.
  constructor; [now apply IH|]. rewrite Forall_map in Fa. eapply Forall_impl; [|exact Fa]. intros b. apply H.
Qed.

Lemma SSorted_map_of {A B} (f : A -> B) (R : B -> B -> Prop) (Q : A -> A -> Prop) l :
  (forall a b, Q a b -> R (f a) (f b)) -> StronglySorted Q l -> StronglySorted R (map f l).
Proof.
  intros H. induction 1 as [|a r _ IH Fa]; cbn; constructor; [exact IH|].
  rewrite Forall_map. eapply Forall_impl; [|exact Fa]. intros b. apply H.
Qed.

Lemma SSorted_map_filter {A B} (g : A -> B) (R : B -> B -> Prop) p l :
  StronglySorted R (map g l) -> StronglySorted R (map g (filter p l)).
Proof.
  induction l as [|x r IH]; cbn; intros H; [constructor|]. inversion H as [|? ? Hr Hx]; subst.
  destruct (p x); cbn; [constructor|]; auto.
  rewrite Forall_map in *. rewrite Forall_forall in *. intros y Hy. apply filter_In in Hy as [Hy _]. now apply Hx.
Qed.

Lemma SSorted_app_last {A} (R : A -> A -> Prop) l x :
  StronglySorted R l -> Forall (fun y => R y x) l -> StronglySorted R (l ++ [x]).
Proof.
  induction l as [|y r IH]; cbn; intros H F; [repeat constructor|].
  inversion H; subst. inversion F; subst. constructor; [now apply IH|].
  apply Forall_app. split; [assumption|now constructor].
Qed.

Lemma partition_perm {A B C D} (f : A -> list B) (g : A -> list C) (p : B -> D) (q : C -> D) (h : A -> D) l :
  (forall a, In a l -> (map p (f a) = [h a] /\ g a = []) \/ (f a = [] /\ map q (g a) = [h a])) ->
  Permutation (map p (flat_map f l) ++ map q (flat_map g l)) (map h l).
Proof.
  induction l as [|a r IH]; intros H; [constructor|]. cbn [flat_map map]. rewrite !map_app.
  specialize (IH (fun x Hx => H x (or_intror Hx))).
  destruct (H a (or_introl eq_refl)) as [[-> ->]|[-> ->]]; cbn [app map].
  - now constructor.
  - apply Permutation_sym, Permutation_cons_app, Permutation_sym, IH.
Qed.

Section InsSort.
  Context {A K : Type} (key : A -> K) (leb : K -> K -> bool) (ins : A -> list A -> list A).
  Hypothesis ins_nil : forall x, ins x [] = [x].
  Hypothesis ins_cons : forall x y r, ins x (y :: r) = if leb (key x) (key y) then x :: y :: r else y :: ins x r.
  Hypothesis leb_total : forall a b, leb a b = false -> leb b a = true.
  Hypothesis leb_trans : forall a b c, leb a b = true -> leb b c = true -> leb a c = true.
  Hypothesis leb_antisym : forall a b, leb a b = true -> leb b a = true -> a = b.
  Let sort := fold_right ins [].
  Let le (a b : A) := leb (key a) (key b) = true.

  Lemma isort_ins_perm x l : Permutation (ins x l) (x :: l).
  Proof.
    induction l as [|y r IH]; [rewrite ins_nil; apply Permutation_refl|]. rewrite ins_cons.
    destruct (leb _ _); [apply Permutation_refl|].
    eapply Permutation_trans; [apply perm_skip; exact IH|apply perm_swap].
  Qed.

  Lemma isort_perm l : Permutation (sort l) l.
  Proof.
    induction l as [|x r IH]; cbn; [constructor|].
    eapply Permutation_trans; [apply isort_ins_perm|now apply perm_skip].
  Qed.

  Lemma isort_in l x : In x (sort l) <-> In x l.
  Proof. split; apply Permutation_in; [|apply Permutation_sym]; apply isort_perm. Qed.

  Lemma isort_map_key (ins' : K -> list K -> list K) :
    (forall k, ins' k [] = [k]) ->
    (forall k j r, ins' k (j :: r) = if leb k j then k :: j :: r else j :: ins' k r) ->
    forall l, map key (sort l) = fold_right ins' [] (map key l).
  Proof.
    intros N C.
    assert (I : forall x l, map key (ins x l) = ins' (key x) (map key l)).
    { intros x l. induction l as [|y r IH]; cbn [map]; [now rewrite ins_nil, N|]. rewrite ins_cons, C.
      destruct (leb _ _); cbn [map]; [reflexivity|now rewrite IH]. }
    induction l as [|x r IH]; cbn; [reflexivity|]. fold sort. now rewrite I, IH.
  Qed.

  Lemma isort_ins_sorted x l : StronglySorted le l -> StronglySorted le (ins x l).
  Proof.
    induction l as [|y r IH]; intros S; [rewrite ins_nil; repeat constructor|]. rewrite ins_cons.
    inversion S as [|? ? Sr Hy]; subst. destruct (leb (key x) (key y)) eqn:E.
    - constructor; [exact S|]. constructor; [exact E|].
      eapply Forall_impl; [|exact Hy]. intros z Hz. exact (leb_trans _ _ _ E Hz).
    - constructor; [now apply IH|]. apply Forall_forall. intros z Hz.
      apply (Permutation_in _ (isort_ins_perm x r)) in Hz.
      destruct Hz as [<-|Hz]; [now apply leb_total|]. rewrite Forall_forall in Hy. now apply Hy.
  Qed.

  Lemma isort_sorted l : StronglySorted le (sort l).
  Proof. induction l; cbn; [constructor|now apply isort_ins_sorted]. Qed.

  Lemma isort_of_sorted l : StronglySorted le l -> sort l = l.
  Proof.
    induction 1 as [|x l S IH Hx]; [reflexivity|]. cbn. fold sort. rewrite IH.
    destruct Hx as [|y r H _]; [apply ins_nil|]. rewrite ins_cons. unfold le in H. now rewrite H.
  Qed.

  (* two insertions with different keys commute: whichever goes first, each stops at the same place *)
  Lemma isort_ins_comm x y l : key x <> key y -> ins x (ins y l) = ins y (ins x l).
  Proof.
    intros Hne.
    assert (AS : forall a b, key a <> key b -> leb (key a) (key b) = true -> leb (key b) (key a) = false).
    { intros a b N H. destruct (leb (key b) (key a)) eqn:B; [|reflexivity]. exfalso. now apply N, leb_antisym. }
    assert (XY : ins x [y] = ins y [x]).
    { rewrite !ins_cons, !ins_nil. destruct (leb (key x) (key y)) eqn:E.
      - now rewrite (AS _ _ Hne E).
      - now rewrite (leb_total _ _ E). }
    induction l as [|z r IH]; [now rewrite !ins_nil|].
    rewrite (ins_cons y z), (ins_cons x z).
    destruct (leb (key y) (key z)) eqn:YZ, (leb (key x) (key z)) eqn:XZ; rewrite !ins_cons, ?YZ, ?XZ.
    - rewrite !ins_cons, !ins_nil in XY. destruct (leb (key x) (key y)), (leb (key y) (key x));
        rewrite ?ins_cons, ?YZ, ?XZ; congruence.
    - destruct (leb (key x) (key y)) eqn:E; [|reflexivity].
      rewrite (leb_trans _ _ _ E YZ) in XZ. discriminate.
    - destruct (leb (key y) (key x)) eqn:E; [|reflexivity].
      rewrite (leb_trans _ _ _ E XZ) in YZ. discriminate.
    - now rewrite IH.
  Qed.

  Lemma isort_perm_invariant l l' : Permutation l l' -> NoDup (map key l) -> sort l = sort l'.
  Proof.
    induction 1 as [|x l l' P IH|x y l|l l' l'' P1 IH1 P2 IH2]; intros N; cbn.
    - reflexivity.
    - inversion N; subst. now rewrite IH.
    - apply isort_ins_comm. inversion N as [|? ? H1 _]; subst. intros E. apply H1. left. now symmetry.
    - rewrite IH1 by assumption. apply IH2. eapply Permutation_NoDup; [|exact N]. now apply Permutation_map.
  Qed.
End InsSort.
