(* Strings as printed by the harness, and small list helpers shared by all models. *)
From Coq Require Export List String Ascii NArith ZArith Bool Arith Lia.
Export ListNotations.
Open Scope string_scope.
Open Scope list_scope.

(* The harness prints every byte outside printable ASCII as [ch n]. *)
Definition ch (n : N) : string := String (ascii_of_N n) EmptyString.
Definition cat (l : list string) : string := String.concat "" l.

Definition nl : string := ch 10.

Fixpoint join (sep : string) (l : list string) : string :=
  match l with
  | [] => ""
  | [x] => x
  | x :: r => x ++ sep ++ join sep r
  end.

Lemma app_assoc_s (a b c : string) : ((a ++ b) ++ c = a ++ (b ++ c))%string.
Proof. induction a as [|x a IH]; cbn; [reflexivity|now rewrite IH]. Qed.

Lemma length_app_s (a b : string) : String.length (a ++ b)%string = String.length a + String.length b.
Proof. induction a as [|x a IH]; cbn; [reflexivity|now rewrite IH]. Qed.

Lemma app_nil_r_s (a : string) : (a ++ "")%string = a.
Proof. induction a as [|x a IH]; cbn; [reflexivity|now rewrite IH]. Qed.

Lemma concat_cons_s x l : String.concat "" (x :: l) = (x ++ String.concat "" l)%string.
Proof. destruct l; cbn; [now rewrite app_nil_r_s|reflexivity]. Qed.

Definition str_eqb := String.eqb.

Lemma str_eqb_eq a b : str_eqb a b = true <-> a = b.
Proof. apply String.eqb_eq. Qed.

Lemma str_eqb_refl a : str_eqb a a = true.
Proof. apply String.eqb_refl. Qed.

Fixpoint list_eqb {A} (eqb : A -> A -> bool) (l1 l2 : list A) : bool :=
  match l1, l2 with
  | [], [] => true
  | x :: r1, y :: r2 => eqb x y && list_eqb eqb r1 r2
  | _, _ => false
  end.

Definition option_eqb {A} (eqb : A -> A -> bool) (a b : option A) : bool :=
  match a, b with
  | None, None => true
  | Some x, Some y => eqb x y
  | _, _ => false
  end.

Lemma option_eqb_eq {A} (eqb : A -> A -> bool) :
  (forall a b, eqb a b = true <-> a = b) ->
  forall a b, option_eqb eqb a b = true <-> a = b.
Proof.
  intros H [x|] [y|]; simpl; split; intros E; try reflexivity; try discriminate.
  - apply H in E. now subst.
  - inversion E. now apply H.
Qed.

Fixpoint bad_from {A} (f : A -> bool) (i : N) (l : list A) : list N :=
  match l with
  | [] => []
  | x :: r => if f x then bad_from f (N.succ i) r else i :: bad_from f (N.succ i) r
  end.
Definition bad_idx {A} (f : A -> bool) (l : list A) : list N := bad_from f 0%N l.

Lemma bad_from_nil {A} (f : A -> bool) l : forall i, bad_from f i l = [] <-> forallb f l = true.
Proof.
  induction l as [|x r IH]; intros i; simpl; [tauto|].
  destruct (f x); simpl; [apply IH|]. split; discriminate.
Qed.

(* strconv.Itoa on non-negative ints *)
Definition digit (n : N) : string := String (ascii_of_N (48 + n)) EmptyString.
Fixpoint dec_fuel (fuel : nat) (n : N) (acc : string) : string :=
  match fuel with
  | O => acc
  | S f => let acc' := (digit (n mod 10) ++ acc)%string in
           if N.ltb n 10 then acc' else dec_fuel f (n / 10) acc'
  end.
Definition dec (n : N) : string := dec_fuel 40 n "".
Definition dec_nat (n : nat) : string := dec (N.of_nat n).
Definition dec_Z (z : Z) : string := if Z.ltb z 0 then ("-" ++ dec (Z.to_N (- z)))%string else dec (Z.to_N z).

Definition all_chars (p : ascii -> bool) : string -> bool :=
  fix go s := match s with EmptyString => true | String a r => p a && go r end.

Lemma all_chars_app p a b : all_chars p (a ++ b)%string = all_chars p a && all_chars p b.
Proof. induction a as [|c r IH]; simpl; [reflexivity|]. now rewrite IH, andb_assoc. Qed.

Section DecChars.
  Variable p : ascii -> bool.
  Hypothesis digits : forall d, (d < 10)%N -> p (ascii_of_N (48 + d)) = true.

  Lemma all_chars_dec_fuel fuel : forall n acc, all_chars p acc = true -> all_chars p (dec_fuel fuel n acc) = true.
  Proof.
    induction fuel as [|f IH]; intros n acc Ha; [exact Ha|]. cbn [dec_fuel]. cbv zeta.
    assert (Hd : all_chars p (digit (n mod 10) ++ acc)%string = true).
    { rewrite all_chars_app, Ha. change (all_chars p (digit (n mod 10))) with (p (ascii_of_N (48 + n mod 10)) && true).
      now rewrite digits by now apply N.mod_lt. }
    destruct (N.ltb n 10); [exact Hd|]. now apply IH.
  Qed.

  Lemma all_chars_dec n : all_chars p (dec n) = true.
  Proof. now apply all_chars_dec_fuel. Qed.

  Lemma all_chars_dec_Z z : p "-"%char = true -> all_chars p (dec_Z z) = true.
  Proof. intros Hm. unfold dec_Z. destruct (Z.ltb z 0); [cbn [all_chars append]; rewrite Hm|]; apply all_chars_dec. Qed.
End DecChars.
