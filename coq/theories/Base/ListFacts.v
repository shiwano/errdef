(* Facts about lists that the standard library does not have: Forall/Forall2, find/existsb/filter, NoDup, flat_map, nth_error, list_eqb. *)
From Errdef Require Import Base.Str.

Lemma fix_and_Forall {A} (P : A -> Prop) l :
  (fix go (l : list A) : Prop := match l with [] => True | k :: r => P k /\ go r end) l <-> Forall P l.
Proof.
  induction l as [|x r IH]; split; intros H; [constructor|exact I| |].
  - destruct H. constructor; [|apply IH]; assumption.
  - inversion H; subst. split; [|apply IH]; assumption.
Qed.

Lemma Forall_I {A} (l : list A) : Forall (fun _ => True) l.
Proof. now apply Forall_forall. Qed.

Lemma forallb_one {A} (f : A -> bool) x : f x = true -> forallb f [x] = true.
Proof. intros H. cbn. now rewrite H. Qed.

Lemma Forall2_impl_In {A B} (R Q : A -> B -> Prop) l l' :
  Forall2 R l l' -> (forall a b, In a l -> R a b -> Q a b) -> Forall2 Q l l'.
Proof.
  induction 1 as [|a b r r' Hab _ IH]; intros HQ; constructor.
  - apply HQ; [now left|exact Hab].
  - apply IH. intros a0 b0 Hin. apply HQ. now right.
Qed.

Lemma Forall2_impl_r {A B} (P : B -> Prop) (R Q : A -> B -> Prop) la lb :
  Forall P lb -> Forall2 R la lb -> (forall a b, P b -> R a b -> Q a b) -> Forall2 Q la lb.
Proof.
  intros F H HQ. induction H as [|a b la lb Hab _ IH]; [constructor|]. inversion F; subst. constructor; auto.
Qed.

Lemma Forall2_refl_In {A} (R : A -> A -> Prop) l : (forall a, In a l -> R a a) -> Forall2 R l l.
Proof. induction l as [|a r IH]; intros H; constructor; [apply H; now left|]. apply IH. intros b Hb. apply H. now right. Qed.

Lemma Forall2_len {A B} (R : A -> B -> Prop) l l' : Forall2 R l l' -> List.length l = List.length l'.
Proof. induction 1; simpl; congruence. Qed.

Lemma Forall2_in_l {A B} (R : A -> B -> Prop) l1 l2 x : Forall2 R l1 l2 -> In x l1 -> exists y, In y l2 /\ R x y.
Proof.
  induction 1 as [|a b r1 r2 Hab _ IH]; intros Hin; [destruct Hin|]. destruct Hin as [<-|Hin].
  - exists b. split; [now left|exact Hab].
  - destruct (IH Hin) as [y [Hy Hr]]. exists y. split; [now right|exact Hr].
Qed.

Lemma Forall2_in_r {A B} (R : A -> B -> Prop) l1 l2 y : Forall2 R l1 l2 -> In y l2 -> exists x, In x l1 /\ R x y.
Proof.
  induction 1 as [|a b r1 r2 Hab _ IH]; intros Hin; [destruct Hin|]. destruct Hin as [<-|Hin].
  - exists a. split; [now left|exact Hab].
  - destruct (IH Hin) as [x [Hx Hr]]. exists x. split; [now right|exact Hr].
Qed.

Lemma Forall2_map {A A' B B'} (f : A -> B) (g : A' -> B') (R : B -> B' -> Prop) l l' :
  Forall2 (fun a b => R (f a) (g b)) l l' -> Forall2 R (map f l) (map g l').
Proof. induction 1; simpl; now constructor. Qed.

Lemma Forall2_map_eq {A B C} (f : A -> C) (g : B -> C) la lb :
  map f la = map g lb <-> Forall2 (fun a b => f a = g b) la lb.
Proof.
  split.
  - revert lb. induction la as [|a r IH]; intros [|b lb] H; inversion H; constructor; auto.
  - induction 1 as [|a b la lb H _ IH]; cbn; [reflexivity|]. now rewrite H, IH.
Qed.

Lemma map_ext_Forall2 {A A' B} (f : A -> B) (g : A' -> B) (R : A -> A' -> Prop) l l' :
  Forall2 R l l' -> (forall a b, In a l -> R a b -> f a = g b) -> map f l = map g l'.
Proof. intros H Hf. apply Forall2_map_eq. exact (Forall2_impl_In _ _ _ _ H Hf). Qed.

Lemma go_Forall2 {A} (R : A -> A -> Prop) l l' :
  (fix go (l l' : list A) : Prop :=
     match l, l' with
     | [], [] => True
     | x :: r, x' :: r' => R x x' /\ go r r'
     | _, _ => False
     end) l l' <-> Forall2 R l l'.
Proof.
  revert l'. induction l as [|x r IH]; intros [|x' r']; split; intros H; try (now inversion H); try exact I.
  - constructor; [apply H|now apply IH].
  - inversion H; subst. split; [assumption|now apply IH].
Qed.

Lemma flat_map_eq2 {A B C} (P : A -> Prop) (f : A -> list C) (g : B -> list C) la lb :
  Forall P la -> Forall2 (fun a b => P a -> f a = g b) la lb -> flat_map f la = flat_map g lb.
Proof.
  intros F H. induction H as [|a b la lb Hab _ IH]; [reflexivity|]. inversion F; subst. cbn. now rewrite Hab, IH.
Qed.

Lemma flat_map_length {A B} (f : A -> list B) l :
  List.length (flat_map f l) = list_sum (map (fun x => List.length (f x)) l).
Proof. induction l; simpl; [reflexivity|]. rewrite app_length, IHl. reflexivity. Qed.

Lemma existsb_eqb_In {A} (eqb : A -> A -> bool) : (forall a b, eqb a b = true <-> a = b) ->
  forall k l, existsb (eqb k) l = true <-> In k l.
Proof.
  intros H k l. rewrite existsb_exists. split.
  - intros [x [Hin Heq]]. apply H in Heq. subst. exact Hin.
  - intros Hin. exists k. split; [exact Hin|now apply H].
Qed.

Lemma existsb_find {A} (p : A -> bool) l : existsb p l = match find p l with Some _ => true | None => false end.
Proof. induction l as [|x r IH]; cbn; [reflexivity|]. destruct (p x); [reflexivity|exact IH]. Qed.

Lemma find_app {A} (p : A -> bool) l1 l2 :
  find p (l1 ++ l2) = match find p l1 with Some x => Some x | None => find p l2 end.
Proof. induction l1 as [|x r IH]; cbn; [reflexivity|]. destruct (p x); [reflexivity|exact IH]. Qed.

Lemma find_NoDup {A K} (key : A -> K) (p : A -> bool) l x :
  NoDup (map key l) -> In x l -> p x = true -> (forall y, In y l -> p y = true -> key y = key x) ->
  find p l = Some x.
Proof.
  induction l as [|a r IH]; cbn; intros N Hin Px Hp; [contradiction|]. inversion N as [|? ? Ha Nr]; subst.
  destruct (p a) eqn:Pa.
  - destruct Hin as [->|Hin]; [reflexivity|]. exfalso. apply Ha. rewrite (Hp a (or_introl eq_refl) Pa).
    now apply in_map.
  - destruct Hin as [->|Hin]; [congruence|]. apply IH; auto.
Qed.

Lemma filter_all {A} (f : A -> bool) l : (forall x, In x l -> f x = true) -> filter f l = l.
Proof.
  induction l as [|x r IH]; intros H; simpl; [reflexivity|].
  rewrite (H x) by now left. f_equal. apply IH. intros y Hy. apply H. now right.
Qed.

Lemma filter_filter {A} (p q : A -> bool) l : filter p (filter q l) = filter (fun x => q x && p x) l.
Proof. induction l as [|x r IH]; cbn; [reflexivity|]. destruct (q x); cbn; [destruct (p x); cbn; now rewrite IH|exact IH]. Qed.

Lemma filter_len_le {A} (p q : A -> bool) l :
  (forall x, p x = true -> q x = true) -> List.length (filter p l) <= List.length (filter q l).
Proof.
  intros H. induction l as [|x r IH]; simpl; [lia|].
  destruct (p x) eqn:E.
  - rewrite (H x E). simpl. lia.
  - destruct (q x); simpl; lia.
Qed.

Lemma NoDup_app_l {A} (l1 l2 : list A) : NoDup (l1 ++ l2) -> NoDup l1.
Proof.
  induction l1 as [|x r IH]; cbn; [constructor|]. intros H. inversion H as [|? ? Hx Hr]; subst.
  constructor; [|now apply IH]. intros Hin. apply Hx, in_or_app. now left.
Qed.

Lemma NoDup_app_r {A} (l1 l2 : list A) : NoDup (l1 ++ l2) -> NoDup l2.
Proof. induction l1 as [|x r IH]; cbn; [auto|]. intros H. inversion H; subst. now apply IH. Qed.

Lemma NoDup_map_reflect {A B C} (f : A -> B) (g : A -> C) l :
  NoDup (map f l) -> (forall x y, In x l -> In y l -> g x = g y -> f x = f y) -> NoDup (map g l).
Proof.
  induction l as [|a r IH]; cbn; intros N H; [constructor|]. inversion N as [|? ? Ha Nr]; subst.
  constructor; [|apply IH; auto]. intros Hin. apply in_map_iff in Hin as [y [E Hy]].
  apply Ha. rewrite <- (H y a (or_intror Hy) (or_introl eq_refl) E). now apply in_map.
Qed.

Lemma NoDup_map_filter {A B} (g : A -> B) p l : NoDup (map g l) -> NoDup (map g (filter p l)).
Proof.
  induction l as [|x r IH]; cbn; intros H; [constructor|]. inversion H; subst.
  destruct (p x); cbn; [constructor|]; auto.
  intros Hin. apply H2. apply in_map_iff in Hin as [y [E Hy]]. apply filter_In in Hy as [Hy _].
  apply in_map_iff. now exists y.
Qed.

Lemma in_firstn {A} (x : A) n l : In x (firstn n l) -> In x l.
Proof. intros H. rewrite <- (firstn_skipn n l). apply in_or_app. now left. Qed.

Lemma in_skipn {A} (x : A) n l : In x (skipn n l) -> In x l.
Proof. intros H. rewrite <- (firstn_skipn n l). apply in_or_app. now right. Qed.

Lemma hd_firstn {A} (n : nat) (l : list A) : 0 < n -> hd_error (firstn n l) = hd_error l.
Proof. destruct n; [lia|]. now destruct l. Qed.

Lemma skipn_app_length {A} (l1 l2 : list A) (n : nat) : skipn (List.length l1 + n) (l1 ++ l2) = skipn n l2.
Proof. induction l1 as [|x r IH]; simpl; [reflexivity | exact IH]. Qed.

Lemma skipn_nth_cons {A} (d : A) : forall s l, s < List.length l -> skipn s l = nth s l d :: skipn (S s) l.
Proof.
  induction s as [|s IH]; intros [|x l] H; simpl in *; try lia; [reflexivity|].
  apply IH. lia.
Qed.

Lemma nth_error_app_len {A} (a b : list A) : nth_error (a ++ b) (List.length a) = nth_error b 0.
Proof. rewrite nth_error_app2; [|lia]. now rewrite Nat.sub_diag. Qed.

Lemma combine_fst {A B} (l : list A) (l2 : list B) :
  List.length l = List.length l2 -> map fst (combine l l2) = l.
Proof.
  revert l2. induction l as [|x r IH]; intros [|y r2] H; simpl in *; try reflexivity; try discriminate.
  f_equal. apply IH. now injection H.
Qed.

Lemma in_combine_seq {A} (l : list A) : forall s n x, nth_error l n = Some x ->
  In (s + n, x) (combine (seq s (List.length l)) l).
Proof.
  induction l as [|y r IH]; intros s [|n] x H; try discriminate; simpl in *.
  - inversion H. rewrite Nat.add_0_r. now left.
  - right. rewrite Nat.add_succ_r. exact (IH (S s) n x H).
Qed.

Lemma forallb_indexed {A} (f : nat * A -> bool) l n x :
  forallb f (combine (seq 0 (List.length l)) l) = true -> nth_error l n = Some x -> f (n, x) = true.
Proof. intros H Hn. rewrite forallb_forall in H. exact (H _ (in_combine_seq l 0 n x Hn)). Qed.

(* pigeonhole: a level that is a function of the node and goes down by one along a step inside {0..N-1}
   stays below N *)
Lemma descent_bound N (lvl : nat -> nat -> Prop) :
  (forall n k k', lvl n k -> lvl n k' -> k = k') ->
  (forall n k, lvl n (S k) -> exists m, m < N /\ lvl m k) ->
  forall k n, n < N -> lvl n k -> S k <= N.
Proof.
  intros Hu Hs.
  assert (C : forall k n, n < N -> lvl n k ->
            exists l, List.length l = S k /\ NoDup l /\ forall m, In m l -> m < N /\ exists j, j <= k /\ lvl m j).
  { induction k as [|k IH]; intros n Hn Hf.
    - exists [n]. split; [reflexivity|]. split; [constructor; [intros []|constructor]|].
      intros m [<-|[]]. eauto.
    - destruct (Hs n k Hf) as [m [Hm Hfm]]. destruct (IH m Hm Hfm) as [l [Hl [Hnd Hall]]].
      exists (n :: l). split; [simpl; lia|]. split.
      + constructor; [|exact Hnd]. intros Hin. destruct (Hall n Hin) as [_ [j [Hj Hfj]]].
        pose proof (Hu n _ _ Hf Hfj). lia.
      + intros x [<-|Hx]; [eauto|]. destruct (Hall x Hx) as [Hr [j [Hj Hfj]]]. eauto. }
  intros k n Hn Hf. destruct (C k n Hn Hf) as [l [Hl [Hnd Hall]]]. rewrite <- Hl, <- (seq_length N 0).
  apply NoDup_incl_length; [exact Hnd|]. intros m Hm. apply in_seq. destruct (Hall m Hm). lia.
Qed.

Lemma list_eqb_eq_in {A} (eqb : A -> A -> bool) l1 :
  Forall (fun x => forall y, eqb x y = true <-> x = y) l1 ->
  forall l2, list_eqb eqb l1 l2 = true <-> l1 = l2.
Proof.
  induction 1 as [|x r Hx _ IH]; intros [|y l2]; simpl; try (split; discriminate); [tauto|].
  rewrite andb_true_iff, Hx, IH. split; [intros [-> ->]; reflexivity|intros E; inversion E; auto].
Qed.

Lemma list_eqb_eq {A} (eqb : A -> A -> bool) :
  (forall a b, eqb a b = true <-> a = b) ->
  forall l1 l2, list_eqb eqb l1 l2 = true <-> l1 = l2.
Proof. intros H l1. apply list_eqb_eq_in, Forall_forall. intros x _. apply H. Qed.

Lemma list_eqb_refl {A} (eqb : A -> A -> bool) : (forall a b, eqb a b = true <-> a = b) ->
  forall l, list_eqb eqb l l = true.
Proof. intros H l. now apply (list_eqb_eq eqb H). Qed.

Lemma list_eqb_Forall2 {A} (f : A -> A -> bool) l1 l2 : list_eqb f l1 l2 = true -> Forall2 (fun a b => f a b = true) l1 l2.
Proof.
  revert l2. induction l1 as [|x r IH]; intros [|y r2] H; cbn in H; try discriminate; constructor.
  - now apply andb_true_iff in H as [H _].
  - apply IH. now apply andb_true_iff in H as [_ H].
Qed.

Lemma fold_left_inv {A B} (f : A -> B -> A) (P : A -> Prop) :
  (forall a b, P a -> P (f a b)) -> forall l a, P a -> P (fold_left f l a).
Proof. intros H l. induction l as [|b r IH]; intros a Ha; [exact Ha|]. apply IH, H, Ha. Qed.
